(* Proofs for C11 (theories/RandFuncs.v).  Each template function is first brought to one equation
   (random_number_eq, random_choice_list_eq / _weighted_eq, datetime_between_eq); bounds, attainable
   values and errors are read off it.  The weighted pick is a binary search on prefix sums
   (bisect_spec).  The texts of weights and bounds are given by the numerals they are made of
   (decimal_text, rel_text, iso_date_text / iso_time_text); the calendar is handled in years that
   start on 1 March (days_of_civil_formula). *)
From Coq Require Import ZArith List Lia Bool Znumtheory.
From SFV Require Import Base RandFuncs.
Import ListNotations. Open Scope Z_scope.

Lemma draw_below_in {A} k n (f : Z -> result A) : 0 <= k < n -> draw_below (Some k) n f = f k.
Proof.
  intros H. unfold draw_below. destruct ((0 <=? k) && (k <? n)) eqn:E; [reflexivity|lia].
Qed.

Lemma draw_below_ok {A} d n (f : Z -> result A) x :
  draw_below d n f = Ok x -> exists k, d = Some k /\ 0 <= k < n /\ f k = Ok x.
Proof.
  destruct d as [k|]; [|discriminate]. unfold draw_below.
  destruct ((0 <=? k) && (k <? n)) eqn:E; [|discriminate].
  intros H. exists k. repeat split; [lia|lia|exact H].
Qed.

Lemma draw_below_ext {A} d n (f g : Z -> result A) :
  (forall k, f k = g k) -> draw_below d n f = draw_below d n g.
Proof. intros H. destruct d as [k|]; [|reflexivity]. unfold draw_below. rewrite H. reflexivity. Qed.

Lemma number_n mn mx step :
  1 <= step ->
  randrange_n mn (mx + 1) step = if mx <? mn then value_error else Ok ((mx - mn) / step + 1).
Proof.
  intros Hs. unfold randrange_n.
  replace (mx + 1 - mn + step - 1) with (mx - mn + 1 * step) by lia. rewrite Z.div_add by lia.
  assert (Hq : (mx < mn -> (mx - mn) / step < 0) /\ (mn <= mx -> 0 <= (mx - mn) / step))
    by (split; intros; [apply Z.div_lt_upper_bound|apply Z.div_pos]; lia).
  destruct (step =? 1) eqn:E1.
  - replace step with 1 in * by lia. rewrite Z.div_1_r in *.
    destruct (mx <? mn) eqn:E, (0 <? mx + 1 - mn) eqn:E'; try lia; [reflexivity|f_equal; lia].
  - destruct (0 <? step) eqn:E2; [|lia].
    destruct (mx <? mn) eqn:E, ((mx - mn) / step + 1 <=? 0) eqn:E'; try lia; reflexivity.
Qed.

Lemma random_number_eq mn mx step d :
  1 <= step ->
  random_number mn mx step d =
  if mx <? mn then value_error
  else draw_below d ((mx - mn) / step + 1) (fun k => Ok (mn + step * k)).
Proof.
  intros Hs. unfold random_number, randrange. rewrite number_n by assumption.
  destruct (mx <? mn); reflexivity.
Qed.

Lemma lattice_point mn mx step k :
  mn <= mx -> 1 <= step -> 0 <= k < (mx - mn) / step + 1 ->
  mn <= mn + step * k <= mx /\ (mn + step * k - mn) mod step = 0.
Proof.
  intros H Hs Hk. split.
  - pose proof (Z.mul_div_le (mx - mn) step ltac:(lia)). nia.
  - replace (mn + step * k - mn) with (k * step) by lia. apply Z.mod_mul. lia.
Qed.

Lemma random_number_draw mn mx step k :
  mn <= mx -> 1 <= step -> 0 <= k < (mx - mn) / step + 1 ->
  random_number mn mx step (Some k) = Ok (mn + step * k).
Proof.
  intros H Hs Hk. rewrite random_number_eq, draw_below_in by lia.
  destruct (Z.ltb_spec mx mn); [lia|reflexivity].
Qed.

Lemma lattice_size_pos mn mx step : mn <= mx -> 1 <= step -> 1 <= (mx - mn) / step + 1.
Proof. intros H Hs. pose proof (Z.div_pos (mx - mn) step). lia. Qed.

Lemma random_number_sound mn mx step d x :
  1 <= step -> random_number mn mx step d = Ok x ->
  mn <= x <= mx /\ (x - mn) mod step = 0 /\ on_lattice mn mx step x = true.
Proof.
  intros Hs Hr. rewrite random_number_eq in Hr by assumption.
  destruct (Z.ltb_spec mx mn) as [|Hle]; [discriminate|].
  apply draw_below_ok in Hr. destruct Hr as (k & _ & Hk & [= <-]).
  destruct (lattice_point mn mx step k Hle Hs Hk) as (Hb & Hm).
  unfold on_lattice. rewrite Hm. repeat split; lia.
Qed.

Lemma random_number_complete mn mx step v :
  mn <= mx -> 1 <= step -> mn <= v <= mx -> (v - mn) mod step = 0 ->
  exists k, 0 <= k < (mx - mn) / step + 1 /\ random_number mn mx step (Some k) = Ok v.
Proof.
  intros H Hs Hv Hm. exists ((v - mn) / step).
  assert (0 <= (v - mn) / step <= (mx - mn) / step)
    by (split; [apply Z.div_pos|apply Z.div_le_mono]; lia).
  split; [lia|]. rewrite random_number_draw by lia. f_equal.
  rewrite Z.mod_eq in Hm by lia. lia.
Qed.

Lemma random_number_first mn mx step :
  mn <= mx -> 1 <= step ->
  0 <= 0 < (mx - mn) / step + 1 /\ random_number mn mx step (Some 0) = Ok mn.
Proof.
  intros H Hs. pose proof (lattice_size_pos mn mx step H Hs).
  rewrite random_number_draw by lia. split; [lia|f_equal; lia].
Qed.

Lemma random_number_last mn mx step :
  mn <= mx -> 1 <= step ->
  0 <= (mx - mn) / step < (mx - mn) / step + 1 /\
  random_number mn mx step (Some ((mx - mn) / step)) = Ok (mx - (mx - mn) mod step).
Proof.
  intros H Hs. pose proof (lattice_size_pos mn mx step H Hs).
  rewrite random_number_draw, Z.mod_eq by lia. split; [lia|f_equal; lia].
Qed.

Lemma random_number_empty mn mx step d :
  mx < mn -> 1 <= step -> random_number mn mx step d = value_error.
Proof.
  intros H Hs. rewrite random_number_eq by assumption. destruct (Z.ltb_spec mx mn); [reflexivity|lia].
Qed.

Lemma number_possible_iff mn mx step v :
  number_possible mn mx step v = true <-> exists k, random_number mn mx step (Some k) = Ok v.
Proof.
  unfold number_possible, random_number, randrange.
  destruct (randrange_n mn (mx + 1) step) as [n|e]; cbn [bind].
  - split.
    + intros H. exists ((v - mn) / step). rewrite draw_below_in by lia. f_equal. lia.
    + intros (k & Hk). apply draw_below_ok in Hk. destruct Hk as (k' & [= <-] & Hk & [= <-]).
      destruct (Z.eq_dec step 0) as [->|Hz].
      * rewrite Zdiv_0_r. lia.
      * replace (mn + step * k - mn) with (k * step) by lia. rewrite Z.div_mul by assumption. lia.
  - split; [discriminate|]. intros (k & Hk). discriminate.
Qed.

Fixpoint psums (acc : Z) (zs : list Z) : list Z :=
  match zs with [] => [] | z :: r => (acc + z) :: psums (acc + z) r end.

Definition zsum (zs : list Z) : Z := fold_right Z.add 0 zs.

Lemma accumulate_some acc zs : accumulate acc (map Some zs) = Ok (psums acc zs).
Proof.
  revert acc; induction zs as [|z r IH]; intros acc; cbn [map accumulate psums]; [reflexivity|].
  rewrite IH. reflexivity.
Qed.

Lemma accumulate_ok acc ws cum :
  accumulate acc ws = Ok cum -> exists zs, ws = map Some zs /\ cum = psums acc zs.
Proof.
  revert acc cum; induction ws as [|[w|] r IH]; intros acc cum H; cbn [accumulate] in H.
  - injection H as <-. exists []. split; reflexivity.
  - destruct (accumulate (acc + w) r) as [t|] eqn:E; [|discriminate]. injection H as <-.
    destruct (IH _ _ E) as (zs & -> & ->). exists (w :: zs). split; reflexivity.
  - discriminate.
Qed.

Lemma accumulate_none acc ws : In None ws -> accumulate acc ws = type_error.
Proof.
  revert acc; induction ws as [|[w|] r IH]; intros acc H; cbn [accumulate]; [destruct H| |reflexivity].
  destruct H as [H|H]; [discriminate|]. rewrite IH by assumption. reflexivity.
Qed.

Lemma psums_length acc zs : length (psums acc zs) = length zs.
Proof. revert acc; induction zs; intros; cbn [psums length]; auto. Qed.

Lemma zsum_cons z r : zsum (z :: r) = z + zsum r.
Proof. reflexivity. Qed.

Lemma psums_nth acc zs i :
  (i < length zs)%nat -> nth i (psums acc zs) 0 = acc + zsum (firstn (S i) zs).
Proof.
  revert acc i; induction zs as [|z r IH]; intros acc i Hi; cbn [length] in Hi; [lia|].
  rewrite firstn_cons, zsum_cons. destruct i as [|i]; cbn [psums nth].
  - cbn [firstn zsum fold_right]. lia.
  - rewrite IH by lia. lia.
Qed.

Lemma zsum_firstn_S zs i :
  (i < length zs)%nat -> zsum (firstn (S i) zs) = zsum (firstn i zs) + nth i zs 0.
Proof.
  revert i; induction zs as [|z r IH]; intros i Hi; cbn [length] in Hi; [lia|].
  rewrite firstn_cons, zsum_cons. destruct i as [|i]; cbn [nth].
  - cbn [firstn zsum fold_right]. lia.
  - rewrite firstn_cons, zsum_cons, IH by lia. lia.
Qed.

Lemma zsum_firstn_mono zs i j :
  Forall (fun z => 0 <= z) zs -> (i <= j)%nat -> (j <= length zs)%nat ->
  zsum (firstn i zs) <= zsum (firstn j zs).
Proof.
  intros Hpos Hij Hj. induction j as [|j IH].
  - replace i with 0%nat by lia. lia.
  - destruct (Nat.eq_dec i (S j)) as [->|Hne]; [lia|].
    rewrite zsum_firstn_S by lia.
    assert (0 <= nth j zs 0) by (eapply Forall_forall; [eassumption|apply nth_In; lia]).
    specialize (IH ltac:(lia) ltac:(lia)). lia.
Qed.

Lemma last_opt_psums acc zs :
  zs <> [] -> last_opt (psums acc zs) = Some (acc + zsum zs).
Proof.
  revert acc; induction zs as [|z r IH]; intros acc Hne; [congruence|].
  destruct r as [|z' r'].
  - cbn [psums last_opt zsum fold_right]. f_equal. lia.
  - change (last_opt (psums acc (z :: z' :: r'))) with (last_opt (psums (acc + z) (z' :: r'))).
    rewrite IH by discriminate. cbn [zsum fold_right]. f_equal. lia.
Qed.

Lemma bisect_spec cum xn den (P : Z -> bool) len :
  (forall i, 0 <= i < len -> lt_at cum xn den i = Ok (P i)) ->
  (forall i j, 0 <= i <= j -> j < len -> P i = true -> P j = true) ->
  forall fuel lo hi, 0 <= lo -> lo <= hi -> hi <= len -> hi - lo < Z.of_nat fuel ->
  exists r, bisect_right fuel cum xn den lo hi = Ok r /\ lo <= r <= hi /\
            (forall i, lo <= i < r -> P i = false) /\ (forall i, r <= i < hi -> P i = true).
Proof.
  intros Hlt Hmono. induction fuel as [|f IH]; intros lo hi H0 Hlo Hhi Hf; [lia|].
  cbn [bisect_right]. destruct (Z.ltb_spec lo hi) as [Hlh|Hlh].
  2: { exists lo. repeat split; intros; lia. }
  set (mid := (lo + hi) / 2).
  assert (Hmid : lo <= mid < hi)
    by (split; [apply Z.div_le_lower_bound|apply Z.div_lt_upper_bound]; lia).
  clearbody mid. rewrite Hlt by lia. cbn [bind]. destruct (P mid) eqn:EP.
  - destruct (IH lo mid H0 ltac:(lia) ltac:(lia) ltac:(lia)) as (r & Hr & Hb & Hl & Hh).
    exists r. split; [assumption|split; [lia|split; [assumption|]]].
    intros i Hi. destruct (Z_lt_le_dec i mid); [apply Hh; lia|].
    apply (Hmono mid i); [lia|lia|assumption].
  - destruct (IH (mid + 1) hi ltac:(lia) ltac:(lia) Hhi ltac:(lia)) as (r & Hr & Hb & Hl & Hh).
    exists r. split; [assumption|split; [lia|split; [|assumption]]].
    intros i Hi. destruct (Z_lt_le_dec mid i); [apply Hl; lia|].
    destruct (P i) eqn:EPi; [|reflexivity].
    rewrite (Hmono i mid) in EP; [discriminate|lia|lia|assumption].
Qed.

Lemma weighted_choice_support zs opts num den :
  length opts = length zs -> Forall (fun z => 0 <= z) zs -> 0 < zsum zs -> 0 <= num < den ->
  exists i o w, weighted_choice (map Some zs) opts (Some num) den = Ok o /\
                nth_error opts i = Some o /\ nth_error zs i = Some w /\ 0 < w.
Proof.
  intros Hlen Hpos Htot Hnum.
  assert (Hne : zs <> []) by (intros ->; cbn in Htot; lia).
  unfold weighted_choice. rewrite accumulate_some. cbn [bind].
  rewrite last_opt_psums, Z.add_0_l by assumption.
  destruct (Z.leb_spec (zsum zs) 0); [lia|].
  rewrite draw_below_in, psums_length by assumption.
  (* pre i = sum of the first i weights; entry i of the cumulative list is pre (i + 1) *)
  set (pre := fun i => zsum (firstn i zs)). set (n := length zs).
  assert (Hn : (0 < n)%nat) by (destruct zs; [congruence|cbn; lia]).
  destruct (bisect_spec (psums 0 zs) (num * zsum zs) den
              (fun i => num * zsum zs <? pre (S (Z.to_nat i)) * den) (Z.of_nat n))
    with (fuel := S n) (lo := 0) (hi := Z.of_nat n - 1) as (r & -> & Hb & Hl & Hh); try lia.
  { intros i Hi. unfold lt_at.
    rewrite (nth_error_nth' _ 0), psums_nth by (rewrite ?psums_length; fold n; lia). reflexivity. }
  { intros i j Hij Hj HPi.
    assert (pre (S (Z.to_nat i)) <= pre (S (Z.to_nat j)))
      by (apply zsum_firstn_mono; solve [assumption|fold n; lia]). nia. }
  cbn [bind]. set (k := Z.to_nat r). assert (Hk : (k < n)%nat) by lia.
  destruct (nth_error opts k) as [o|] eqn:Eo; [|apply nth_error_None in Eo; lia].
  exists k, o, (nth k zs 0).
  split; [reflexivity|split; [assumption|split; [apply nth_error_nth'; assumption|]]].
  (* pre k * den <= num * total < pre (k + 1) * den, hence pre k < pre (k + 1) *)
  assert (Hup : num * zsum zs < pre (S k) * den).
  { destruct (Z.eq_dec r (Z.of_nat n - 1)) as [Heq|Hneq].
    - replace (S k) with n by lia. unfold pre, n. rewrite firstn_all. nia.
    - specialize (Hh r ltac:(lia)). fold k in Hh. lia. }
  assert (Hlow : pre k * den <= num * zsum zs).
  { destruct (Z.eq_dec r 0) as [Hr0|Hr0].
    - replace k with 0%nat by lia. unfold pre. cbn [firstn zsum fold_right]. nia.
    - specialize (Hl (r - 1) ltac:(lia)).
      replace (S (Z.to_nat (r - 1))) with k in Hl by lia. lia. }
  unfold pre in *. rewrite zsum_firstn_S in Hup by assumption. nia.
Qed.

Lemma weighted_choice_single zs opts num den i0 :
  length opts = length zs -> Forall (fun z => 0 <= z) zs -> 0 < zsum zs -> 0 <= num < den ->
  (forall j w, nth_error zs j = Some w -> 0 < w -> j = i0) ->
  exists o, weighted_choice (map Some zs) opts (Some num) den = Ok o /\ nth_error opts i0 = Some o.
Proof.
  intros Hlen Hpos Htot Hnum Huniq.
  destruct (weighted_choice_support zs opts num den Hlen Hpos Htot Hnum)
    as (i & o & w & Hr & Ho & Hw & Hw0).
  exists o. rewrite <- (Huniq i w Hw Hw0). split; assumption.
Qed.

Lemma weighted_choice_none ws opts d den :
  In None ws -> weighted_choice ws opts d den = type_error.
Proof. intros H. unfold weighted_choice. rewrite accumulate_none by assumption. reflexivity. Qed.

Lemma weighted_choice_no_mass zs opts d den :
  zsum zs <= 0 -> exists e, weighted_choice (map Some zs) opts d den = Err e.
Proof.
  intros H. unfold weighted_choice. rewrite accumulate_some. cbn [bind].
  destruct zs as [|z r]; [eexists; reflexivity|].
  rewrite last_opt_psums, Z.add_0_l by discriminate.
  destruct (Z.leb_spec (zsum (z :: r)) 0); [eexists; reflexivity|lia].
Qed.

Lemma listed_positive_intro ws opts v i w :
  nth_error ws i = Some (Some w) -> 0 < w -> nth_error opts i = Some v ->
  listed_positive ws opts v = true.
Proof.
  intros Hw Hpos. revert ws opts Hw; induction i as [|i IH]; intros [|w0 ws] [|o opts] Hw Ho;
    try discriminate; cbn [nth_error listed_positive] in *.
  - injection Hw as ->. injection Ho as ->. lia.
  - specialize (IH ws opts Hw Ho). destruct w0; [rewrite IH; apply orb_true_r|assumption].
Qed.

Lemma listed_positive_elim ws opts v :
  listed_positive ws opts v = true ->
  exists i w, nth_error ws i = Some (Some w) /\ 0 < w /\ nth_error opts i = Some v.
Proof.
  revert opts; induction ws as [|w0 ws IH]; intros opts H; [discriminate|].
  destruct opts as [|o opts]; [destruct w0; discriminate|]. cbn [listed_positive] in H.
  assert (Hrec : listed_positive ws opts v = true -> exists i w,
            nth_error (w0 :: ws) i = Some (Some w) /\ 0 < w /\ nth_error (o :: opts) i = Some v).
  { intros H'. destruct (IH _ H') as (i & w & ?). exists (S i), w. assumption. }
  destruct w0 as [w0|]; [|auto]. apply orb_true_iff in H. destruct H as [H|H]; [|auto].
  exists 0%nat, w0. cbn [nth_error]. repeat split; [lia|f_equal; lia].
Qed.


Lemma random_choice_list_eq opts d den :
  opts <> [] ->
  random_choice (RCList opts) d den =
  draw_below d (Z.of_nat (length opts)) (fun k =>
    match nth_error opts (Z.to_nat k) with Some o => Ok o | None => index_error end).
Proof. destruct opts; [congruence|reflexivity]. Qed.

Lemma random_choice_list opts :
  opts <> [] ->
  (forall k, 0 <= k < Z.of_nat (length opts) ->
     exists o, random_choice (RCList opts) (Some k) 0 = Ok o /\ nth_error opts (Z.to_nat k) = Some o
               /\ In o opts) /\
  (forall o, In o opts -> exists k, 0 <= k < Z.of_nat (length opts) /\
                                    forall den, random_choice (RCList opts) (Some k) den = Ok o).
Proof.
  intros Hne. split.
  - intros k Hk. rewrite random_choice_list_eq, draw_below_in by assumption.
    destruct (nth_error opts (Z.to_nat k)) as [o|] eqn:Eo; [|apply nth_error_None in Eo; lia].
    exists o. repeat split. eapply nth_error_In; eassumption.
  - intros o Hin. apply In_nth_error in Hin. destruct Hin as (i & Hi).
    assert (i < length opts)%nat by (apply nth_error_Some; congruence).
    exists (Z.of_nat i). split; [lia|]. intros den.
    rewrite random_choice_list_eq, draw_below_in, Nat2Z.id, Hi by (assumption || lia). reflexivity.
Qed.

Lemma random_choice_empty d den : random_choice (RCList []) d den = value_error.
Proof. reflexivity. Qed.

Lemma random_choice_weighted_eq a d den :
  match a with RCList _ => False | _ => True end -> rc_weights a <> [] ->
  random_choice a d den = weighted_choice (rc_weights a) (rc_options a) d den.
Proof. destruct a as [opts|[|it r]|[|it r]]; cbn [rc_weights map]; easy. Qed.

Lemma rc_lengths a : length (rc_options a) = length (rc_weights a).
Proof. destruct a; cbn [rc_options rc_weights]; rewrite ?map_length; reflexivity. Qed.

Lemma random_choice_support a zs num den :
  match a with RCList _ => False | _ => True end ->
  rc_weights a = map Some zs -> Forall (fun z => 0 <= z) zs -> 0 < zsum zs -> 0 <= num < den ->
  exists i o w, random_choice a (Some num) den = Ok o /\
                nth_error (rc_options a) i = Some o /\ nth_error zs i = Some w /\ 0 < w.
Proof.
  intros Hshape Hws Hpos Htot Hnum.
  rewrite random_choice_weighted_eq, Hws.
  - apply weighted_choice_support; try assumption. rewrite rc_lengths, Hws. apply map_length.
  - assumption.
  - rewrite Hws. destruct zs; [cbn in Htot; lia|discriminate].
Qed.

Lemma random_choice_possible a zs num den o :
  match a with RCList _ => False | _ => True end ->
  rc_weights a = map Some zs -> Forall (fun z => 0 <= z) zs -> 0 < zsum zs -> 0 <= num < den ->
  random_choice a (Some num) den = Ok o -> choice_possible a o = true.
Proof.
  intros Hshape Hws Hpos Htot Hnum Hr.
  destruct (random_choice_support a zs num den Hshape Hws Hpos Htot Hnum)
    as (i & o' & w & Hr' & Ho & Hw & Hw0).
  rewrite Hr in Hr'. injection Hr' as <-.
  unfold choice_possible. eapply listed_positive_intro; try eassumption.
  rewrite Hws. apply map_nth_error. assumption.
Qed.

Lemma random_choice_dict items num den :
  Forall (fun it => 0 <= snd it) items -> 0 < zsum (map snd items) -> 0 <= num < den ->
  exists o w, random_choice (RCDict items) (Some num) den = Ok o /\ In (o, w) items /\ 0 < w.
Proof.
  intros Hpos Htot Hnum.
  destruct (random_choice_support (RCDict items) (map snd items) num den) as
      (i & o & w & Hr & Ho & Hw & Hw0); try assumption; try exact I.
  - cbn [rc_weights]. rewrite map_map. reflexivity.
  - rewrite Forall_map. assumption.
  - exists o, w. repeat split; try assumption.
    cbn [rc_options] in Ho. rewrite nth_error_map in Ho, Hw.
    destruct (nth_error items i) as [[o' w']|] eqn:Ei; [|discriminate].
    injection Ho as <-. injection Hw as <-. eapply nth_error_In; eassumption.
Qed.

Lemma random_choice_choices items num den :
  Forall (fun it => exists p, fst it = Some p /\ 0 <= p) items ->
  0 < zsum (map (fun it => match fst it with Some p => p | None => 0 end) items) ->
  0 <= num < den ->
  exists o p, random_choice (RCChoices items) (Some num) den = Ok o /\ In (Some p, o) items /\ 0 < p.
Proof.
  intros Hall Htot Hnum.
  set (zs := map (fun it => match fst it with Some p => p | None => 0 end) items) in *.
  assert (Hws : rc_weights (RCChoices items) = map Some zs).
  { unfold zs. cbn [rc_weights]. rewrite map_map. apply map_ext_in. intros it Hin.
    rewrite Forall_forall in Hall. destruct (Hall it Hin) as (p & -> & _). reflexivity. }
  assert (Hpos : Forall (fun z => 0 <= z) zs).
  { unfold zs. rewrite Forall_map. eapply Forall_impl; [|exact Hall].
    intros it (p & -> & Hp). exact Hp. }
  destruct (random_choice_support (RCChoices items) zs num den I Hws Hpos Htot Hnum)
    as (i & o & w & Hr & Ho & Hw & Hw0).
  cbn [rc_options] in Ho. unfold zs in Hw. rewrite nth_error_map in Ho, Hw.
  destruct (nth_error items i) as [[p' o']|] eqn:Ei; [|discriminate].
  injection Ho as <-. injection Hw as <-. apply nth_error_In in Ei.
  rewrite Forall_forall in Hall. destruct (Hall _ Ei) as (p & Hp & _).
  cbn [fst] in *. subst p'. exists o', p. repeat split; assumption.
Qed.

Lemma random_choice_missing_probability items d den :
  In None (map fst items) -> random_choice (RCChoices items) d den = type_error.
Proof.
  intros H. destruct items as [|it r]; [destruct H|].
  cbn [random_choice]. apply weighted_choice_none.
  rewrite <- (map_map fst choice_weight). apply in_map_iff. exists None. split; [reflexivity|assumption].
Qed.

Lemma div_between L H num den :
  0 < den -> L * den <= num <= H * den -> L <= num / den <= H.
Proof. intros Hd [Hl Hh]. split; [apply Zdiv_le_lower_bound|apply Zdiv_le_upper_bound]; assumption. Qed.

Lemma quot_between L H num den :
  0 < den -> L * den <= num <= H * den -> L <= Z.quot num den <= H.
Proof.
  intros Hd [Hl Hh]. split; [apply Z.quot_le_lower_bound|apply Z.quot_le_upper_bound]; lia.
Qed.

Lemma rhe_between L H num den :
  0 < den -> L * den <= num <= H * den -> L <= rhe num den <= H.
Proof.
  intros Hd [Hl Hh]. unfold rhe.
  pose proof (Z.div_mod num den ltac:(lia)). pose proof (Z.mod_pos_bound num den Hd).
  set (q := num / den) in *. set (r := num mod den) in *. clearbody q r.
  assert (L <= q <= H) by nia.
  assert (0 < r -> q + 1 <= H) by nia.   (* rounding up happens only off the grid *)
  destruct (2 * r <? den) eqn:E1; [lia|]. destruct (den <? 2 * r) eqn:E2; [lia|].
  destruct (Z.even q); lia.
Qed.

Lemma faker_day_of_between ds de num den :
  ds <= de -> 0 <= num < den ->
  ds <= faker_day_of (ds * DAY) (de * DAY) num den <= de.
Proof.
  intros Hle Hnum. unfold faker_day_of.
  set (tn := ds * DAY * den + (de * DAY - ds * DAY) * num).
  assert (Htn : ds * DAY * den <= tn <= de * DAY * den) by (unfold tn, DAY; nia).
  clearbody tn. destruct (0 <=? tn); (apply div_between; [reflexivity|]).
  - apply rhe_between; [lia|]. unfold DAYUS, DAY, US in *. lia.
  - apply quot_between; lia.
Qed.

Lemma date_between_bounds c s e ds de num den :
  resolve_date c s = Ok ds -> resolve_date c e = Ok de -> 0 <= num < den ->
  (ds <= de -> exists v, date_between c s e (Some num) den = Ok (Some v) /\ ds <= v <= de) /\
  (de < ds -> forall d, date_between c s e d den = Ok None).
Proof.
  intros Hs He Hnum. unfold date_between. rewrite Hs, He. cbn [bind]. split.
  - intros Hle. destruct (Z.ltb_spec de ds); [lia|]. rewrite draw_below_in by assumption.
    eexists. split; [reflexivity|]. apply faker_day_of_between; assumption.
  - intros Hlt d. destruct (Z.ltb_spec de ds); [reflexivity|lia].
Qed.

Lemma date_between_possible c s e num den v :
  0 <= num < den -> run_fn (FDate c s e) (Some num) den = Ok v -> possible (FDate c s e) v = true.
Proof.
  intros Hnum Hr. cbn [run_fn possible] in *. unfold date_between in Hr.
  destruct (resolve_date c s) as [ds|]; [|discriminate].
  destruct (resolve_date c e) as [de|]; [|discriminate]. cbn [bind] in Hr.
  destruct (Z.ltb_spec de ds).
  - injection Hr as <-. lia.
  - rewrite draw_below_in in Hr by assumption. injection Hr as <-.
    pose proof (faker_day_of_between ds de num den ltac:(lia) Hnum). lia.
Qed.

Lemma floor_sec_bounds us : floor_sec us * US <= us < floor_sec us * US + US.
Proof. unfold floor_sec, US. Z.div_mod_to_equations. lia. Qed.

(* for b - a <= 1 Faker draws from [a, a + 1], whatever b is: the result may pass the end bound by up
   to a second, which is why datetime_between clamps it *)
Lemma faker_dt_between_coded a b num den :
  a <= b -> 0 <= num < den ->
  a * US <= faker_dt_between a b num den <= Z.max b (a + 1) * US.
Proof.
  intros Hab Hnum. unfold faker_dt_between. destruct (Z.leb_spec (b - a) 1).
  - assert (a * US <= rhe ((a * den + num) * US) den <= (a + 1) * US)
      by (apply rhe_between; unfold US; nia). unfold US in *. lia.
  - assert (a * US <= rhe ((a * den + (b - a) * num) * US) den <= b * US)
      by (apply rhe_between; unfold US; nia). unfold US in *. lia.
Qed.

Lemma instant_utc w : instant (mkStamp w (Some 0)) = w.
Proof. apply Z.sub_0_r. Qed.

Lemma parse_off_some c sp ps : parse_datetimespec c sp = Ok ps -> exists o, off ps = Some o.
Proof.
  destruct sp as [| |[w [o|]]|d|y mo w d h mi x| |]; intros [= <-]; cbn [off]; eauto.
Qed.

Lemma datetime_fn_instant c sp ps :
  parse_datetimespec c sp = Ok ps ->
  exists s', datetime_fn c sp = Ok s' /\ instant s' = instant ps /\ off s' = Some 0.
Proof.
  intros H. destruct (parse_off_some c sp ps H) as (o & Ho).
  unfold datetime_fn. rewrite H. cbn [bind]. rewrite Ho.
  eexists. split; [reflexivity|split; [apply instant_utc|reflexivity]].
Qed.

Lemma clamp_cases rc lo hi tz :
  lo <= hi ->
  lo <= rc <= hi /\ clamp rc lo hi tz = (rc, tz) \/
  rc < lo /\ clamp rc lo hi tz = (lo, bound_zone tz) \/
  hi < rc /\ clamp rc lo hi tz = (hi, bound_zone tz).
Proof.
  intros H. unfold clamp.
  destruct (Z.ltb_spec rc lo); [destruct (Z.ltb_spec hi lo); [lia|auto]|].
  destruct (Z.ltb_spec hi rc); [auto|]. left. split; [lia|reflexivity].
Qed.

Lemma clamp_between rc lo hi tz :
  lo <= hi -> lo <= fst (clamp rc lo hi tz) <= hi /\
              (snd (clamp rc lo hi tz) = tz \/ snd (clamp rc lo hi tz) = bound_zone tz).
Proof.
  intros H. destruct (clamp_cases rc lo hi tz H) as [(? & ->)|[(? & ->)|(? & ->)]];
    cbn [fst snd]; split; auto; lia.
Qed.

Lemma clamp_id rc lo hi tz : lo <= rc <= hi -> clamp rc lo hi tz = (rc, tz).
Proof.
  intros H. destruct (clamp_cases rc lo hi tz) as [(_ & ->)|[(? & _)|(? & _)]]; [lia|reflexivity|lia|lia].
Qed.

Lemma datetime_between_eq cs ce s e tz d den ps pe :
  parse_datetimespec cs s = Ok ps -> parse_datetimespec ce e = Ok pe ->
  datetime_between cs ce s e tz d den =
  if instant pe <? instant ps then Err (DGE "End date is before start date")
  else draw_below d den (fun num =>
         Ok (clamp (faker_dt_between (floor_sec (instant ps)) (floor_sec (instant pe)) num den)
                   (instant ps) (instant pe) tz)).
Proof.
  intros Hs He.
  destruct (datetime_fn_instant cs s ps Hs) as (s' & Hds & His & _).
  destruct (datetime_fn_instant ce e pe He) as (e' & Hde & Hie & _).
  unfold datetime_between. rewrite Hds, Hde. cbn [bind]. rewrite His, Hie. reflexivity.
Qed.

Lemma datetime_between_bounds cs ce s e tz num den ps pe :
  parse_datetimespec cs s = Ok ps -> parse_datetimespec ce e = Ok pe -> 0 <= num < den ->
  (instant pe < instant ps ->
     forall d, exists m, datetime_between cs ce s e tz d den = Err (DGE m)) /\
  (instant ps <= instant pe ->
     exists v o, datetime_between cs ce s e tz (Some num) den = Ok (v, o) /\
                 instant ps <= v <= instant pe /\ (o = tz \/ o = bound_zone tz)).
Proof.
  intros Hs He Hnum. split.
  - intros Hlt d. rewrite (datetime_between_eq _ _ _ _ _ _ _ _ _ Hs He).
    destruct (Z.ltb_spec (instant pe) (instant ps)); [eexists; reflexivity|lia].
  - intros Hle. rewrite (datetime_between_eq _ _ _ _ _ _ _ _ _ Hs He), draw_below_in by assumption.
    destruct (Z.ltb_spec (instant pe) (instant ps)); [lia|].
    eexists _, _. split; [apply f_equal, surjective_pairing|]. apply clamp_between. assumption.
Qed.

Lemma datetime_between_unclamped cs ce s e tz num den ps pe :
  parse_datetimespec cs s = Ok ps -> parse_datetimespec ce e = Ok pe -> 0 <= num < den ->
  instant ps mod US = 0 -> floor_sec (instant ps) < floor_sec (instant pe) ->
  datetime_between cs ce s e tz (Some num) den =
    Ok (faker_dt_between (floor_sec (instant ps)) (floor_sec (instant pe)) num den, tz).
Proof.
  intros Hs He Hnum Hwhole Hlater. rewrite (datetime_between_eq _ _ _ _ _ _ _ _ _ Hs He).
  pose proof (floor_sec_bounds (instant pe)).
  pose proof (Z_div_exact_full_2 (instant ps) US ltac:(discriminate) Hwhole) as Hw.
  fold (floor_sec (instant ps)) in Hw.
  pose proof (faker_dt_between_coded _ _ num den (Z.lt_le_incl _ _ Hlater) Hnum).
  destruct (Z.ltb_spec (instant pe) (instant ps)); [unfold US in *; lia|].
  rewrite draw_below_in, clamp_id by (assumption || (unfold US in *; lia)). reflexivity.
Qed.

Lemma datetime_between_possible cs ce s e tz num den v :
  0 <= num < den -> run_fn (FDateTime cs ce s e tz) (Some num) den = Ok v ->
  possible (FDateTime cs ce s e tz) v = true.
Proof.
  intros Hnum Hr. cbn [run_fn] in Hr. unfold datetime_between in Hr.
  destruct (datetime_fn cs s) as [s'|] eqn:Es; [|discriminate].
  destruct (datetime_fn ce e) as [e'|] eqn:Ee; [|discriminate]. cbn [bind] in Hr.
  destruct (Z.ltb_spec (instant e') (instant s')) as [|Hle]; [discriminate|].
  rewrite draw_below_in in Hr by assumption.
  assert (Hrefl : forall x, option_eqb Z.eqb x x = true)
    by (intros [x|]; [apply Z.eqb_refl|reflexivity]).
  destruct (clamp_cases (faker_dt_between (floor_sec (instant s')) (floor_sec (instant e')) num den)
              _ _ tz Hle) as [(? & E)|[(? & E)|(? & E)]];
    rewrite E in Hr; injection Hr as <-; cbn [possible]; rewrite Es, Ee, Hrefl, ?Z.eqb_refl; lia.
Qed.

(* 2023-01-01T10:00:00 as microseconds of wall clock (the regression examples of C11 start there) *)
Definition w_10h : Z := 1672567200000000.

Lemma accumulate_scale k acc ws :
  accumulate (k * acc) (map (option_map (Z.mul k)) ws) =
  match accumulate acc ws with Ok cum => Ok (map (Z.mul k) cum) | Err e => Err e end.
Proof.
  revert acc; induction ws as [|[w|] r IH]; intros acc; cbn [map option_map accumulate];
    try reflexivity.
  rewrite <- Z.mul_add_distr_l, IH. destruct (accumulate (acc + w) r); reflexivity.
Qed.

Lemma last_opt_map {A B} (f : A -> B) l : last_opt (map f l) = option_map f (last_opt l).
Proof.
  induction l as [|x [|y r] IH]; [reflexivity|reflexivity|].
  change (last_opt (map f (x :: y :: r))) with (last_opt (map f (y :: r))). exact IH.
Qed.

Lemma lt_at_scale k cum xn den i :
  0 < k -> lt_at (map (Z.mul k) cum) (k * xn) den i = lt_at cum xn den i.
Proof.
  intros Hk. unfold lt_at. rewrite nth_error_map.
  destruct (nth_error cum (Z.to_nat i)) as [c|]; cbn [option_map]; [|reflexivity].
  f_equal. nia.
Qed.

Lemma bisect_scale k fuel cum xn den lo hi :
  0 < k ->
  bisect_right fuel (map (Z.mul k) cum) (k * xn) den lo hi = bisect_right fuel cum xn den lo hi.
Proof.
  intros Hk. revert lo hi; induction fuel as [|f IH]; intros lo hi; cbn [bisect_right]; [reflexivity|].
  destruct (lo <? hi); [|reflexivity]. rewrite lt_at_scale by assumption.
  destruct (lt_at cum xn den ((lo + hi) / 2)) as [[|]|]; cbn [bind]; auto.
Qed.

Lemma weighted_choice_scale k ws opts d den :
  0 < k -> weighted_choice (map (option_map (Z.mul k)) ws) opts d den = weighted_choice ws opts d den.
Proof.
  intros Hk. unfold weighted_choice.
  pose proof (accumulate_scale k 0 ws) as Ha. rewrite Z.mul_0_r in Ha. rewrite Ha.
  destruct (accumulate 0 ws) as [cum|]; cbn [bind]; [|reflexivity].
  rewrite last_opt_map, map_length.
  destruct (last_opt cum) as [total|]; cbn [option_map]; [|reflexivity].
  replace (k * total <=? 0) with (total <=? 0) by nia.
  destruct (total <=? 0); [reflexivity|]. apply draw_below_ext. intros v.
  replace (v * (k * total)) with (k * (v * total)) by lia.
  rewrite bisect_scale by assumption. reflexivity.
Qed.

Lemma pow10_pos n : 0 < pow10 n.
Proof. apply Z.pow_pos_nonneg; lia. Qed.

Lemma scale_to_sign P d :
  (0 < scale_to P d <-> 0 < dnum d) /\ (0 <= scale_to P d <-> 0 <= dnum d).
Proof. unfold scale_to. pose proof (pow10_pos (P - dplaces d)). nia. Qed.

Definition scale_with (P : nat) (ws : list (option dec)) : list (option Z) :=
  map (option_map (scale_to P)) ws.

Lemma max_places_ge ws d : In (Some d) ws -> (dplaces d <= max_places ws)%nat.
Proof.
  induction ws as [|[x|] r IH]; [intros []| |]; intros [H|H]; cbn [max_places]; try discriminate.
  - injection H as ->. lia.
  - specialize (IH H). lia.
  - auto.
Qed.

Lemma scale_with_more P Q ws :
  (max_places ws <= P)%nat -> (P <= Q)%nat ->
  scale_with Q ws = map (option_map (Z.mul (pow10 (Q - P)))) (scale_with P ws).
Proof.
  intros HP HQ. unfold scale_with. rewrite map_map. apply map_ext_in.
  intros [d|] Hin; [|reflexivity]. cbn [option_map]. f_equal.
  pose proof (max_places_ge ws d Hin). unfold scale_to, pow10.
  replace (Z.of_nat (Q - dplaces d)) with (Z.of_nat (Q - P) + Z.of_nat (P - dplaces d)) by lia.
  rewrite Z.pow_add_r by lia. lia.
Qed.

Lemma parse_weights_length ts ws : parse_weights ts = Ok ws -> length ws = length ts.
Proof.
  revert ws; induction ts as [|[t|] r IH]; intros ws H; cbn [parse_weights] in H.
  - injection H as <-. reflexivity.
  - destruct (parse_weight_str t); [|discriminate].
    destruct (parse_weights r); [|discriminate]. injection H as <-. cbn [length]. auto.
  - destruct (parse_weights r); [|discriminate]. injection H as <-. cbn [length]. auto.
Qed.

Lemma parse_weights_nth ts ws i d :
  parse_weights ts = Ok ws -> nth_error ws i = Some (Some d) ->
  exists t, nth_error ts i = Some (Some t) /\ parse_weight_str t = Ok d.
Proof.
  revert ws i; induction ts as [|[t|] r IH]; intros ws i H Hi; cbn [parse_weights] in H.
  - injection H as <-. destruct i; discriminate.
  - destruct (parse_weight_str t) as [w|] eqn:Et; [|discriminate].
    destruct (parse_weights r) as [ws'|]; [|discriminate]. injection H as <-.
    destruct i as [|i]; cbn [nth_error] in *; [injection Hi as ->|]; eauto.
  - destruct (parse_weights r) as [ws'|]; [|discriminate]. injection H as <-.
    destruct i as [|i]; cbn [nth_error] in *; [discriminate|eauto].
Qed.

Lemma map_fst_combine {A B} (l1 : list A) (l2 : list B) :
  length l1 = length l2 -> map fst (combine l1 l2) = l1 /\ map snd (combine l1 l2) = l2.
Proof.
  revert l2; induction l1 as [|a r IH]; intros [|b r2] H; try discriminate; [split; reflexivity|].
  cbn [combine map fst snd]. destruct (IH r2) as (-> & ->); [|split; reflexivity].
  injection H as H. exact H.
Qed.

Lemma zsum_pos_exists zs : Forall (fun z => 0 <= z) zs -> Exists (fun z => 0 < z) zs -> 0 < zsum zs.
Proof.
  intros Hall Hex.
  induction Hex as [z r Hz|z r Hex IH]; inversion Hall as [|? ? Hz0 Hr]; subst; rewrite zsum_cons.
  - assert (0 <= zsum r); [|lia]. clear -Hr. induction Hr; rewrite ?zsum_cons; [reflexivity|lia].
  - specialize (IH Hr). lia.
Qed.

Lemma block_row_support (b : block) k ds num den :
  parse_weights (block_toks k b) = Ok (map Some ds) ->
  Forall (fun d => 0 <= dnum d) ds -> Exists (fun d => 0 < dnum d) ds -> 0 <= num < den ->
  exists i it e d o,
    run_block b k (Some num) den = Ok o /\ nth_error b i = Some it /\ o = eval_pexpr k (snd it) /\
    fst it = Some e /\ parse_weight_str (eval_wexpr k e) = Ok d /\ nth_error ds i = Some d /\ 0 < dnum d.
Proof.
  intros Hp Hall Hex Hnum.
  pose proof (parse_weights_length _ _ Hp) as Hlen. unfold block_toks in Hlen.
  rewrite !map_length in Hlen.
  unfold run_block, render_block. rewrite Hp. cbn [bind].
  (* the weights random_choice receives: the numerators over the common denominator 10^P *)
  set (P := max_places (map Some ds)). set (zs := map (scale_to P) ds).
  replace (scale_weights (map Some ds)) with (map Some zs)
    by (unfold scale_weights, zs; rewrite !map_map; reflexivity).
  destruct (map_fst_combine (map Some zs) (block_labels k b)) as (Hfst & Hsnd).
  { unfold zs, block_labels. rewrite !map_length. assumption. }
  assert (Hpos : Forall (fun z => 0 <= z) zs).
  { apply Forall_map. eapply Forall_impl; [|exact Hall]. intros d. apply scale_to_sign. }
  destruct (random_choice_support (RCChoices (combine (map Some zs) (block_labels k b))) zs num den)
    as (i & o & w & Hr & Ho & Hw & Hw0); try exact I; try assumption.
  { cbn [rc_weights]. rewrite <- Hfst at 2. apply map_ext. intros [[p|] l]; reflexivity. }
  { apply zsum_pos_exists; [assumption|]. apply Exists_map. eapply Exists_impl; [|exact Hex].
    intros d. apply scale_to_sign. }
  (* back from position i of the vectors to the item of the block and its text *)
  cbn [rc_options] in Ho. rewrite Hsnd in Ho. unfold block_labels in Ho. unfold zs in Hw.
  rewrite nth_error_map in Ho, Hw.
  destruct (nth_error b i) as [it|] eqn:Eit; [|discriminate]. injection Ho as <-.
  destruct (nth_error ds i) as [d|] eqn:Ed; [|discriminate]. injection Hw as <-.
  destruct (parse_weights_nth _ _ i d Hp) as (t & Ht & Hpt); [apply map_nth_error; assumption|].
  unfold block_toks in Ht. rewrite nth_error_map, Eit in Ht. injection Ht as Ht.
  destruct (fst it) as [e|] eqn:Ee; [|discriminate]. injection Ht as <-.
  exists i, it, e, d, (eval_pexpr k (snd it)).
  repeat split; try assumption. apply (scale_to_sign P d). assumption.
Qed.

Lemma eval_wexpr_literal k k' t : eval_wexpr k (WLit t) = eval_wexpr k' (WLit t).
Proof. reflexivity. Qed.

(* Case analysis on a digit.  The match in digit_val tests the bits of the character from the lowest
   up and gives up as soon as no digit is left, so most of the 256 cases die early. *)
Lemma digit_cases (P : ascii -> Prop) :
  P "0"%char -> P "1"%char -> P "2"%char -> P "3"%char -> P "4"%char -> P "5"%char -> P "6"%char ->
  P "7"%char -> P "8"%char -> P "9"%char -> forall c, is_digit c = true -> P c.
Proof.
  intros H0 H1 H2 H3 H4 H5 H6 H7 H8 H9 [b0 b1 b2 b3 b4 b5 b6 b7] H.
  destruct b0, b1, b2, b3; try discriminate H;
    destruct b4; try discriminate H; destruct b5; try discriminate H;
    destruct b6; try discriminate H; destruct b7; try discriminate H; assumption.
Qed.

Lemma digit_char_facts c :
  is_digit c = true ->
  sign_of c = None /\ is_blank c = false /\ is_pct c = false /\ weight_char c = true /\
  exists v, digit_val c = Some v /\ 0 <= v <= 9.
Proof.
  revert c. apply digit_cases; (repeat split; eexists; split; [reflexivity|lia]).
Qed.

Lemma all_digits_cons c r : all_digits (c :: r) = true <-> is_digit c = true /\ all_digits r = true.
Proof. apply andb_true_iff. Qed.

Lemma take_digits_app ds rest acc n :
  all_digits ds = true ->
  match rest with [] => True | c :: _ => is_digit c = false end ->
  take_digits (ds ++ rest) acc n = (dval acc ds, (n + length ds)%nat, rest).
Proof.
  revert acc n; induction ds as [|c r IH]; intros acc n Hd Hrest.
  - cbn [app dval length]. rewrite Nat.add_0_r. destruct rest as [|c r]; [reflexivity|].
    cbn [take_digits]. unfold is_digit in Hrest. destruct (digit_val c); [discriminate|reflexivity].
  - apply all_digits_cons in Hd as (Hc & Hr). cbn [app take_digits dval length].
    unfold is_digit in Hc. destruct (digit_val c); [|discriminate].
    rewrite IH, Nat.add_succ_r by assumption. reflexivity.
Qed.

Lemma dval_app acc a b : all_digits a = true -> dval acc (a ++ b) = dval (dval acc a) b.
Proof.
  revert acc; induction a as [|c r IH]; intros acc H; [reflexivity|].
  apply all_digits_cons in H as (Hc & Hr). cbn [app dval]. unfold is_digit in Hc.
  destruct (digit_val c); [auto|discriminate].
Qed.

Lemma dval_nonneg acc cs : 0 <= acc -> 0 <= dval acc cs.
Proof.
  revert acc; induction cs as [|c r IH]; intros acc H; cbn [dval]; [assumption|].
  destruct (digit_val c) as [v|] eqn:E; [|assumption]. apply IH.
  destruct (digit_char_facts c) as (_ & _ & _ & _ & v' & Hv' & Hb);
    [unfold is_digit; rewrite E; reflexivity|].
  assert (v' = v) by congruence. lia.
Qed.

Lemma drop_while_all p t m : forallb p t = true -> drop_while p (t ++ m) = drop_while p m.
Proof.
  induction t as [|c r IH]; intros H; [reflexivity|].
  apply andb_true_iff in H as (Hc & Hr). cbn [app drop_while]. rewrite Hc. auto.
Qed.

Lemma drop_while_head p m :
  match m with [] => True | c :: _ => p c = false end -> drop_while p m = m.
Proof. destruct m as [|c r]; [reflexivity|]. cbn [drop_while]. intros ->. reflexivity. Qed.

Lemma forallb_rev {A} (f : A -> bool) l : forallb f (rev l) = forallb f l.
Proof.
  induction l as [|x r IH]; [reflexivity|]. cbn [rev forallb]. rewrite forallb_app, IH. cbn [forallb].
  rewrite andb_true_r. apply andb_comm.
Qed.

Lemma rstrip_tail p l t :
  forallb (fun c => negb (p c)) l = true -> forallb p t = true -> rstrip_chars p (l ++ t) = l.
Proof.
  intros Hl Ht. unfold rstrip_chars. rewrite rev_app_distr.
  rewrite drop_while_all by (rewrite forallb_rev; assumption).
  rewrite drop_while_head; [apply rev_involutive|].
  rewrite <- forallb_rev in Hl. destruct (rev l) as [|c r]; [exact I|].
  apply andb_true_iff in Hl as (Hc & _). destruct (p c); [discriminate|reflexivity].
Qed.

Lemma forallb_repeat {A} (f : A -> bool) x n : f x = true -> forallb f (repeat x n) = true.
Proof. intros H. induction n; cbn [repeat forallb]; [reflexivity|]. rewrite H. assumption. Qed.

Lemma forallb_impl {A} (f g : A -> bool) l :
  (forall x, f x = true -> g x = true) -> forallb f l = true -> forallb g l = true.
Proof. rewrite !forallb_forall. auto. Qed.

(* a decimal numeral as float() reads it: optional sign, integer digits, optionally a point and fraction digits *)
Definition sign_text (sg : option bool) : list ascii :=
  match sg with None => [] | Some true => ["+"%char] | Some false => ["-"%char] end.
Definition sign_val (sg : option bool) : Z := match sg with Some false => -1 | _ => 1 end.
Definition decimal_text (sg : option bool) (ip : list ascii) (fp : option (list ascii)) : list ascii :=
  sign_text sg ++ ip ++ match fp with None => [] | Some f => "."%char :: f end.
Definition fraction_digits (fp : option (list ascii)) : list ascii := match fp with None => [] | Some f => f end.

Definition decimal_ok (ip : list ascii) (fp : option (list ascii)) : Prop :=
  all_digits ip = true /\ all_digits (fraction_digits fp) = true /\ (ip ++ fraction_digits fp) <> [].

Lemma decimal_text_forallb (q : ascii -> bool) sg ip fp :
  decimal_ok ip fp -> q "+"%char = true -> q "-"%char = true -> q "."%char = true ->
  (forall c, is_digit c = true -> q c = true) -> forallb q (decimal_text sg ip fp) = true.
Proof.
  intros (Hi & Hf & _) Hp Hm Hd Hq. unfold decimal_text.
  rewrite !forallb_app, (forallb_impl _ _ _ Hq Hi).
  destruct sg as [[|]|], fp as [f|]; cbn [sign_text forallb fraction_digits] in *;
    rewrite ?Hp, ?Hm, ?Hd, ?(forallb_impl _ _ _ Hq Hf); reflexivity.
Qed.

Lemma decimal_text_chars sg ip fp :
  decimal_ok ip fp ->
  forallb weight_char (decimal_text sg ip fp) = true /\
  forallb (fun c => negb (is_blank c)) (decimal_text sg ip fp) = true /\
  forallb (fun c => negb (is_pct c)) (decimal_text sg ip fp) = true.
Proof.
  intros Hok. repeat split; apply decimal_text_forallb; try reflexivity; try assumption;
    intros c Hc; destruct (digit_char_facts c Hc) as (_ & Hb & Hp & Hw & _);
    rewrite ?Hb, ?Hp, ?Hw; reflexivity.
Qed.

(* parse_decimal after the blanks are gone: the sign is split off, then digits, optionally a
   point and more digits *)
Definition split_sign (cs : list ascii) : Z * list ascii :=
  match cs with
  | c :: r => match sign_of c with Some s => (s, r) | None => (1, cs) end
  | [] => (1, [])
  end.

Definition decimal_body (sg : Z) (cs : list ascii) : result dec :=
  let '(ip, ni, r1) := take_digits cs 0 0 in
  match r1 with
  | [] => match ni with O => value_error | S _ => Ok (mkDec (sg * ip) 0) end
  | c :: r2 =>
    if is_point c then
      let '(fp, nf, r3) := take_digits r2 ip 0 in
      match r3 with
      | [] => match (ni + nf)%nat with O => value_error | S _ => Ok (mkDec (sg * fp) nf) end
      | _ :: _ => value_error
      end
    else value_error
  end.

Lemma parse_decimal_eq cs :
  parse_decimal cs =
  if negb (forallb weight_char cs) then Err Unsupported
  else let '(sg, r) := split_sign (rstrip_chars is_blank (drop_while is_blank cs)) in decimal_body sg r.
Proof. reflexivity. Qed.

Lemma split_sign_text sg body :
  match body with [] => True | c :: _ => sign_of c = None end ->
  split_sign (sign_text sg ++ body) = (sign_val sg, body).
Proof.
  destruct sg as [[|]|]; try reflexivity. destruct body; [reflexivity|]. cbn. intros ->. reflexivity.
Qed.

Lemma decimal_body_text s ip fp :
  decimal_ok ip fp ->
  decimal_body s (ip ++ match fp with None => [] | Some f => "."%char :: f end) =
  Ok (mkDec (s * dval 0 (ip ++ fraction_digits fp)) (length (fraction_digits fp))).
Proof.
  intros (Hi & Hf & Hne). unfold decimal_body.
  rewrite take_digits_app by (destruct fp; easy).
  destruct fp as [f|]; cbn [fraction_digits is_point Nat.add] in *.
  - rewrite <- (app_nil_r f) at 1. rewrite take_digits_app, dval_app by easy.
    destruct (length ip + (0 + length f))%nat eqn:El; [|reflexivity].
    destruct ip, f; try discriminate El. contradiction Hne. reflexivity.
  - rewrite app_nil_r in *. destruct ip; [congruence|reflexivity].
Qed.

Lemma parse_decimal_text a b sg ip fp :
  decimal_ok ip fp ->
  parse_decimal (repeat " "%char a ++ decimal_text sg ip fp ++ repeat " "%char b)
  = Ok (mkDec (sign_val sg * dval 0 (ip ++ fraction_digits fp)) (length (fraction_digits fp))).
Proof.
  intros Hok. destruct (decimal_text_chars sg ip fp Hok) as (Hw & Hnb & _).
  rewrite parse_decimal_eq, !forallb_app, Hw, !forallb_repeat by reflexivity. cbn [negb andb].
  rewrite drop_while_all by (apply forallb_repeat; reflexivity).
  rewrite drop_while_head.
  2: { destruct (decimal_text sg ip fp) as [|c r] eqn:E.
       - destruct Hok as (_ & _ & Hne). destruct sg as [[|]|], ip, fp; try discriminate E.
         contradiction Hne.
       - apply andb_true_iff in Hnb as (Hc & _). cbn [app]. destruct (is_blank c); [discriminate|reflexivity]. }
  rewrite rstrip_tail by (assumption || (apply forallb_repeat; reflexivity)).
  unfold decimal_text. rewrite split_sign_text; [apply decimal_body_text; assumption|].
  destruct Hok as (Hi & _ & Hne). destruct ip as [|c r].
  - destruct fp; [exact eq_refl|]. contradiction Hne. reflexivity.
  - apply all_digits_cons in Hi as (Hc & _). apply digit_char_facts. assumption.
Qed.

Lemma parse_weight_str_text a b k sg ip fp :
  decimal_ok ip fp ->
  parse_weight_str (WStr (string_of_list_ascii
     (repeat " "%char a ++ decimal_text sg ip fp ++ repeat " "%char b ++ repeat "%"%char k)))
  = Ok (mkDec (sign_val sg * dval 0 (ip ++ fraction_digits fp)) (length (fraction_digits fp))).
Proof.
  intros Hok. cbn [parse_weight_str]. unfold chars. rewrite list_ascii_of_string_of_list_ascii.
  rewrite 2 app_assoc, <- (app_assoc (repeat _ a)), rstrip_tail.
  - apply parse_decimal_text. assumption.
  - destruct (decimal_text_chars sg ip fp Hok) as (_ & _ & Hp).
    rewrite !forallb_app, Hp, !forallb_repeat by reflexivity. reflexivity.
  - apply forallb_repeat. reflexivity.
Qed.

Lemma parse_weight_flt_text sg ip fp :
  decimal_ok ip fp ->
  parse_weight_str (WFlt (string_of_list_ascii (decimal_text sg ip fp)))
  = Ok (mkDec (sign_val sg * dval 0 (ip ++ fraction_digits fp)) (length (fraction_digits fp))).
Proof.
  intros Hok. cbn [parse_weight_str]. unfold chars. rewrite list_ascii_of_string_of_list_ascii.
  rewrite <- (app_nil_r (decimal_text sg ip fp)). apply (parse_decimal_text 0 0). assumption.
Qed.

(* the text of one group of a relative bound such as -30d or -2w+3h: sign, digits, unit letter *)
Definition group_text (neg : bool) (ds : list ascii) (u : ascii) : list ascii :=
  (if neg then "-"%char else "+"%char) :: ds ++ [u].
Definition group_val (neg : bool) (ds : list ascii) : Z := (if neg then -1 else 1) * dval 0 ds.

(* one optional group per unit: None = absent *)
Definition group_slot := option (bool * list ascii).
Definition slot_ok (g : group_slot) : Prop :=
  match g with None => True | Some (_, ds) => all_digits ds = true /\ ds <> [] end.
Fixpoint rel_text (us : list ascii) (gs : list group_slot) : list ascii :=
  match us, gs with
  | u :: us', Some (neg, ds) :: gs' => group_text neg ds u ++ rel_text us' gs'
  | _ :: us', None :: gs' => rel_text us' gs'
  | _, _ => []
  end.
Definition slot_val (g : group_slot) : option Z :=
  match g with None => None | Some (neg, ds) => Some (group_val neg ds) end.
Definition slot_z (g : group_slot) : Z := match slot_val g with Some v => v | None => 0 end.

Lemma sign_of_text (neg : bool) : sign_of (if neg then "-"%char else "+"%char) = Some (if neg then -1 else 1).
Proof. destruct neg; reflexivity. Qed.

Lemma rel_group_text u neg ds u' rest :
  all_digits ds = true -> ds <> [] -> is_digit u' = false ->
  rel_group u (group_text neg ds u' ++ rest) =
  if Ascii.eqb u' u then (Some (group_val neg ds), rest) else (None, group_text neg ds u' ++ rest).
Proof.
  intros Hd Hne Hu. unfold group_text, rel_group. cbn [app].
  rewrite sign_of_text, <- app_assoc, take_digits_app by assumption.
  destruct ds; [congruence|reflexivity].
Qed.

Lemma rel_group_skip u us gs :
  ~ In u us -> Forall (fun u' => is_digit u' = false) us -> Forall slot_ok gs ->
  rel_group u (rel_text us gs) = (None, rel_text us gs).
Proof.
  intros Hnin Hus. revert gs; induction Hus as [|u' us' Hu' _ IH]; intros gs Hok; [destruct gs; reflexivity|].
  destruct Hok as [|[[neg ds]|] gs' Hg Hok']; cbn [rel_text]; [reflexivity| |].
  - destruct Hg. rewrite rel_group_text by assumption.
    destruct (Ascii.eqb_spec u' u) as [->|]; [|reflexivity]. contradiction Hnin. left. reflexivity.
  - apply IH; [|assumption]. intros H. apply Hnin. right. exact H.
Qed.

Lemma rel_groups_text us gs :
  NoDup us -> Forall (fun u => is_digit u = false) us -> Forall slot_ok gs -> length gs = length us ->
  rel_groups us (rel_text us gs) = (map slot_val gs, []).
Proof.
  revert gs; induction us as [|u us' IH]; intros gs Hnd Hus Hok Hlen.
  - destruct gs; [reflexivity|discriminate].
  - destruct gs as [|g gs']; [discriminate|]. injection Hlen as Hlen.
    inversion Hnd as [|? ? Hnin Hnd']; inversion Hus as [|? ? Hu Hus']; inversion Hok as [|? ? Hg Hok'];
      subst.
    cbn [rel_groups map]. destruct g as [[neg ds]|]; cbn [rel_text slot_val].
    + destruct Hg as (Hd & Hne). rewrite rel_group_text, Ascii.eqb_refl, IH by assumption. reflexivity.
    + rewrite rel_group_skip, IH by assumption. reflexivity.
Qed.

Lemma rel_units_facts : NoDup rel_units /\ Forall (fun u => is_digit u = false) rel_units.
Proof. split; repeat constructor; cbn [In]; intuition discriminate. Qed.

Lemma parse_rel_text gs :
  Forall slot_ok gs -> length gs = 7%nat -> parse_rel (rel_text rel_units gs) = Some (map slot_val gs).
Proof.
  intros Hok Hlen. unfold parse_rel. destruct rel_units_facts as (Hnd & Hus).
  rewrite rel_groups_text by assumption. reflexivity.
Qed.

Lemma not_keyword c r :
  c <> "n"%char -> c <> "t"%char ->
  String.eqb (string_of_list_ascii (c :: r)) "now" = false /\
  String.eqb (string_of_list_ascii (c :: r)) "today" = false.
Proof.
  intros Hn Ht. cbn [string_of_list_ascii String.eqb].
  apply Ascii.eqb_neq in Hn, Ht. rewrite Hn, Ht. split; reflexivity.
Qed.

Lemma rel_groups_no_sign us c r : sign_of c = None -> rel_groups us (c :: r) = (map (fun _ => None) us, c :: r).
Proof.
  intros Hs. induction us as [|u us' IH]; [reflexivity|].
  cbn [rel_groups map]. unfold rel_group at 1. rewrite Hs, IH. reflexivity.
Qed.

Lemma spec_of_text_parse_rel cs gs :
  parse_rel cs = Some gs -> cs <> [] ->
  spec_of_text (string_of_list_ascii cs)
  = SRel (slot gs 0) (slot gs 1) (slot gs 2) (slot gs 3) (slot gs 4) (slot gs 5) (slot gs 6).
Proof.
  intros Hp Hne. destruct cs as [|c r]; [congruence|].
  (* a full match starts with a sign (else every group is skipped and the text is left over), so it
     is no keyword *)
  destruct (sign_of c) eqn:Es.
  2: { unfold parse_rel in Hp. rewrite rel_groups_no_sign in Hp by assumption. discriminate Hp. }
  unfold spec_of_text, chars. rewrite list_ascii_of_string_of_list_ascii, Hp.
  destruct (not_keyword c r) as (-> & ->); [intros ->; discriminate Es..|reflexivity].
Qed.

Lemma rel_seconds_mono y mo w d h mi s y' mo' w' d' h' mi' s' :
  y <= y' -> mo <= mo' -> w <= w' -> d <= d' -> h <= h' -> mi <= mi' -> s <= s' ->
  rel_seconds y mo w d h mi s <= rel_seconds y' mo' w' d' h' mi' s' /\
  rel_days y mo w d h mi s <= rel_days y' mo' w' d' h' mi' s'.
Proof.
  intros. assert (rel_seconds y mo w d h mi s <= rel_seconds y' mo' w' d' h' mi' s')
    by (unfold rel_seconds; lia).
  split; [assumption|]. apply Z.div_le_mono; [reflexivity|assumption].
Qed.

(* The model counts years from 1 March, so that the leap day comes last: the date (y, m, d) lies in
   the March year `march_year y m`, in its month `march_month m` (0 = March, ..., 11 = February),
   which begins `month_start` days after 1 March.  `leaps Y` counts the leap days up to the end of
   March year Y - 1, i.e. up to February of the calendar year Y. *)
Definition leaps (y : Z) : Z := y / 4 - y / 100 + y / 400.
Definition march_year (y m : Z) : Z := if m <=? 2 then y - 1 else y.
Definition march_month (m : Z) : Z := (m + 9) mod 12.
Definition month_start (mp : Z) : Z := (153 * mp + 2) / 5.

Lemma div_step y n : 0 < n -> (y + 1) / n = y / n + if (y + 1) mod n =? 0 then 1 else 0.
Proof.
  intros Hn. pose proof (Z.div_mod y n ltac:(lia)). pose proof (Z.mod_pos_bound y n Hn).
  pose proof (Z.div_mod (y + 1) n ltac:(lia)). pose proof (Z.mod_pos_bound (y + 1) n Hn).
  destruct (Z.eqb_spec ((y + 1) mod n) 0); nia.
Qed.

Lemma mod_0_divide y n m : 0 < n -> 0 < m -> (n | m) -> y mod m = 0 -> y mod n = 0.
Proof. intros Hn Hm Hd H. rewrite (Zmod_div_mod n m), H by assumption. reflexivity. Qed.

Lemma leaps_step y :
  leaps (y + 1) - leaps y = if is_leap (y + 1) then 1 else 0.
Proof.
  unfold leaps, is_leap. rewrite !(div_step y) by lia.
  pose proof (mod_0_divide (y + 1) 100 400 eq_refl eq_refl (ex_intro _ 4 eq_refl)).
  pose proof (mod_0_divide (y + 1) 4 100 eq_refl eq_refl (ex_intro _ 25 eq_refl)).
  destruct (Z.eqb_spec ((y + 1) mod 4) 0), (Z.eqb_spec ((y + 1) mod 100) 0),
    (Z.eqb_spec ((y + 1) mod 400) 0); cbn [negb andb orb]; lia.
Qed.

Lemma leaps_mono a b : a <= b -> leaps a <= leaps b.
Proof.
  intros H. replace b with (a + (b - a)) by lia.
  apply (natlike_ind (fun n => leaps a <= leaps (a + n))); [rewrite Z.add_0_r; lia| |lia].
  intros n _ IH. pose proof (leaps_step (a + n)) as Hs.
  replace (a + Z.succ n) with (a + n + 1) by lia. destruct (is_leap (a + n + 1)); lia.
Qed.

(* the years before year y of its 400-year era bring their leap days with them *)
Lemma div_era y c k n : 0 < c -> n = c * k -> (y - y / n * n) / c = y / c - y / n * k.
Proof.
  intros Hc ->. replace (y - y / (c * k) * (c * k)) with (y + (- (y / (c * k)) * k) * c) by lia.
  rewrite Z.div_add by lia. lia.
Qed.

Lemma days_of_civil_formula y m d :
  days_of_civil y m d =
  365 * march_year y m + leaps (march_year y m) + month_start (march_month m) + d - 719469.
Proof.
  unfold days_of_civil, leaps. fold (march_year y m) (march_month m).
  fold (month_start (march_month m)). set (Y := march_year y m). clearbody Y.
  rewrite (div_era Y 4 100 400), (div_era Y 100 4 400) by easy. lia.
Qed.

Lemma march_cases y m :
  1 <= m <= 12 ->
  m <= 2 /\ march_year y m = y - 1 /\ march_month m = m + 9 \/
  3 <= m /\ march_year y m = y /\ march_month m = m - 3.
Proof.
  intros Hm. unfold march_year, march_month. destruct (Z.leb_spec m 2); [left|right];
    (split; [lia|split; [reflexivity|]]).
  - apply Z.mod_small. lia.
  - replace (m + 9) with (m - 3 + 1 * 12) by lia. rewrite Z.mod_add by lia. apply Z.mod_small. lia.
Qed.

Lemma month_start_mono a b : a <= b -> month_start a <= month_start b.
Proof. intros H. apply Z.div_le_mono; lia. Qed.

Definition valid_md (y m d : Z) : Prop := 1 <= m <= 12 /\ 1 <= d <= days_in_month y m.

(* except for February, which ends the March year, a month ends where the next one starts *)
Lemma month_end y m :
  1 <= m <= 12 -> m <> 2 ->
  march_year y (m + 1) = march_year y m /\ march_month (m + 1) = march_month m + 1 /\
  month_start (march_month (m + 1)) = month_start (march_month m) + days_in_month y m.
Proof.
  intros Hm H2.
  assert (Hc : m = 1 \/ m = 3 \/ m = 4 \/ m = 5 \/ m = 6 \/ m = 7 \/ m = 8 \/ m = 9 \/ m = 10 \/
               m = 11 \/ m = 12) by lia.
  repeat destruct Hc as [->|Hc]; try subst m; repeat split.
Qed.

Lemma february y : month_start (march_month 2) + days_in_month y 2 = if is_leap y then 366 else 365.
Proof. change (days_in_month y 2) with (if is_leap y then 29 else 28). destruct (is_leap y); reflexivity. Qed.

Lemma march_day_bounds y m d :
  valid_md y m d ->
  1 <= month_start (march_month m) + d <= if is_leap (march_year y m + 1) then 366 else 365.
Proof.
  intros (Hm & Hd).
  assert (0 <= month_start (march_month m))
    by (apply Z.div_pos; [pose proof (Z.mod_pos_bound (m + 9) 12); unfold march_month|]; lia).
  split; [lia|]. destruct (Z.eq_dec m 2) as [->|H2].
  - pose proof (february y). change (march_year y 2 + 1) with (y - 1 + 1).
    replace (y - 1 + 1) with y by lia. lia.
  - destruct (month_end y m Hm H2) as (_ & Hn & He).
    pose proof (Z.mod_pos_bound (m + 1 + 9) 12 eq_refl). fold (march_month (m + 1)) in *.
    pose proof (month_start_mono (march_month (m + 1)) 11 ltac:(lia)).
    change (month_start 11) with 337 in *. destruct (is_leap (march_year y m + 1)); lia.
Qed.

Lemma days_of_civil_next y m d :
  valid_md y m d ->
  (d < days_in_month y m -> days_of_civil y m (d + 1) = days_of_civil y m d + 1) /\
  (d = days_in_month y m -> m < 12 -> days_of_civil y (m + 1) 1 = days_of_civil y m d + 1) /\
  (d = days_in_month y m -> m = 12 -> days_of_civil (y + 1) 1 1 = days_of_civil y m d + 1).
Proof.
  intros (Hm & Hd). rewrite !days_of_civil_formula. split; [lia|split].
  - intros -> Hlt. destruct (Z.eq_dec m 2) as [->|H2].
    + pose proof (february y). pose proof (leaps_step (y - 1)) as Hs.
      replace (y - 1 + 1) with y in Hs by lia.
      change (march_year y (2 + 1)) with y. change (march_year y 2) with (y - 1).
      change (month_start (march_month (2 + 1))) with 0. destruct (is_leap y); lia.
    + destruct (month_end y m Hm H2) as (-> & _ & ->). lia.
  - intros -> ->. destruct (month_end y 12 Hm ltac:(lia)) as (_ & _ & He).
    change (march_month (12 + 1)) with (march_month 1) in He.
    change (march_year (y + 1) 1) with (y + 1 - 1). change (march_year y 12) with y.
    replace (y + 1 - 1) with y by lia. lia.
Qed.

Definition ymd_lt (y m d y' m' d' : Z) : Prop :=
  y < y' \/ (y = y' /\ (m < m' \/ (m = m' /\ d < d'))).

(* calendar order is the order of (March year, month counted from March, day); a date of an earlier
   March year lies before the end of that year, one of an earlier month before the end of that month *)
Lemma days_of_civil_mono y m d y' m' d' :
  valid_md y m d -> valid_md y' m' d' -> ymd_lt y m d y' m' d' ->
  days_of_civil y m d < days_of_civil y' m' d'.
Proof.
  intros Hv Hv' Hlt. rewrite !days_of_civil_formula.
  pose proof (march_day_bounds y m d Hv) as (_ & Hb).
  pose proof (march_day_bounds y' m' d' Hv') as (Hb' & _).
  destruct Hv as (Hm & Hd), Hv' as (Hm' & Hd').
  assert (Hord : march_year y m < march_year y' m' \/
                 march_year y m = march_year y' m' /\
                 (march_month m < march_month m' <= 11 \/ march_month m = march_month m' /\ d < d')).
  { destruct (march_cases y m Hm) as [(? & -> & ->)|(? & -> & ->)];
      destruct (march_cases y' m' Hm') as [(? & -> & ->)|(? & -> & ->)]; unfold ymd_lt in Hlt; lia. }
  destruct Hord as [HY|(-> & [HM|(-> & Hdd)])]; [| |lia].
  - pose proof (leaps_step (march_year y m)) as Hs.
    pose proof (leaps_mono (march_year y m + 1) (march_year y' m') ltac:(lia)) as Hl.
    destruct (is_leap _); lia.
  - assert (H2 : m <> 2) by (intros ->; change (march_month 2) with 11 in HM; lia).
    destruct (month_end y m Hm H2) as (_ & Hn & He).
    pose proof (month_start_mono (march_month (m + 1)) (march_month m') ltac:(lia)). lia.
Qed.

Lemma days_of_civil_epoch : days_of_civil 1970 1 1 = 0 /\ days_of_civil 2000 3 1 = 11017 /\ days_of_civil 1 1 1 = -719162.
Proof. vm_compute. repeat split. Qed.

Lemma take_n_digits_app n ds rest acc :
  all_digits ds = true -> length ds = n -> take_n_digits n (ds ++ rest) acc = Some (dval acc ds, rest).
Proof.
  revert ds acc; induction n as [|n IH]; intros [|c r] acc Hd Hl; try discriminate; [reflexivity|].
  apply all_digits_cons in Hd as (Hc & Hr). injection Hl as Hl.
  cbn [app take_n_digits dval]. unfold is_digit in Hc. destruct (digit_val c); [auto|discriminate].
Qed.

Lemma take_n_digits_all n ds acc :
  all_digits ds = true -> length ds = n -> take_n_digits n ds acc = Some (dval acc ds, []).
Proof. intros Hd Hl. rewrite <- (app_nil_r ds) at 1. apply take_n_digits_app; assumption. Qed.

Lemma expect_char_hit c r : expect_char c (c :: r) = Some r.
Proof. unfold expect_char. rewrite Ascii.eqb_refl. reflexivity. Qed.

Definition iso_date_text (y4 m2 d2 tail : list ascii) : list ascii :=
  y4 ++ "-"%char :: m2 ++ "-"%char :: d2 ++ tail.

Definition fields_ok (l : list (list ascii * nat)) : Prop :=
  Forall (fun p => all_digits (fst p) = true /\ length (fst p) = snd p) l.

Lemma fields_ok_cons ds n l :
  fields_ok ((ds, n) :: l) <-> (all_digits ds = true /\ length ds = n) /\ fields_ok l.
Proof. apply Forall_cons_iff. Qed.

(* the first chain of parse_iso reads the three date fields and hands on the rest; [more] lets a
   caller's one hypothesis cover the fields of the time part as well *)
Lemma iso_date_fields y4 m2 d2 tail more :
  fields_ok ((y4, 4%nat) :: (m2, 2%nat) :: (d2, 2%nat) :: more) ->
  (olet '(y, r) <- take_n_digits 4 (iso_date_text y4 m2 d2 tail) 0;
   olet r <- expect_char "-" r;
   olet '(m, r) <- take_n_digits 2 r 0;
   olet r <- expect_char "-" r;
   olet '(d, r) <- take_n_digits 2 r 0;
   Some (y, m, d, r)) = Some (dval 0 y4, dval 0 m2, dval 0 d2, tail).
Proof.
  intros H. repeat (apply fields_ok_cons in H; destruct H as [[? ?] H]). unfold iso_date_text.
  rewrite (take_n_digits_app 4 y4) by assumption. cbn [obind]. rewrite expect_char_hit. cbn [obind].
  rewrite (take_n_digits_app 2 m2) by assumption. cbn [obind]. rewrite expect_char_hit. cbn [obind].
  rewrite (take_n_digits_app 2 d2) by assumption. reflexivity.
Qed.

Lemma parse_iso_date y4 m2 d2 :
  fields_ok [(y4, 4%nat); (m2, 2%nat); (d2, 2%nat)] ->
  parse_iso (iso_date_text y4 m2 d2 [])
  = if valid_date (dval 0 y4) (dval 0 m2) (dval 0 d2)
    then IsoD (days_of_civil (dval 0 y4) (dval 0 m2) (dval 0 d2)) else IsoBad.
Proof. intros H. unfold parse_iso. rewrite (iso_date_fields _ _ _ _ _ H). reflexivity. Qed.

(* the fraction of a second and the zone as they may follow HH:MM:SS *)
Inductive zone_spec := ZNone | ZZulu | ZOff (neg : bool) (h2 m2 : list ascii).
Definition zone_text (z : zone_spec) : list ascii :=
  match z with
  | ZNone => []
  | ZZulu => ["Z"%char]
  | ZOff neg h2 m2 => (if neg then "-"%char else "+"%char) :: h2 ++ ":"%char :: m2
  end.
Definition zone_val (z : zone_spec) : option Z :=
  match z with
  | ZNone => None
  | ZZulu => Some 0
  | ZOff neg h2 m2 => Some ((if neg then -1 else 1) * (dval 0 h2 * 3600 + dval 0 m2 * 60))
  end.
Definition zone_ok (z : zone_spec) : Prop :=
  match z with
  | ZOff _ h2 m2 => fields_ok [(h2, 2%nat); (m2, 2%nat)] /\ dval 0 h2 < 24 /\ dval 0 m2 < 60
  | _ => True
  end.
Definition frac_text (f : option (list ascii)) : list ascii :=
  match f with None => [] | Some ds => "."%char :: ds end.
Definition frac_val (f : option (list ascii)) : Z :=
  match f with None => 0 | Some ds => dval 0 ds * pow10 (6 - length ds) end.
Definition frac_ok (f : option (list ascii)) : Prop :=
  match f with None => True | Some ds => all_digits ds = true /\ (1 <= length ds <= 6)%nat end.

Lemma zone_text_head z : match zone_text z with [] => True | c :: _ => is_digit c = false end.
Proof. destruct z as [| |[|] h m]; cbn; auto. Qed.

Lemma parse_zone_text z : zone_ok z -> parse_zone (zone_text z) = Some (zone_val z).
Proof.
  destruct z as [| |neg h2 m2]; [reflexivity..|]. intros (H & Hh & Hm).
  repeat (apply fields_ok_cons in H; destruct H as [[? ?] H]).
  unfold zone_text, zone_val.
  destruct neg; cbn [parse_zone sign_of obind];
    rewrite (take_n_digits_app 2 h2) by assumption; cbn [obind]; rewrite expect_char_hit; cbn [obind];
    rewrite (take_n_digits_all 2 m2) by assumption; cbn [obind];
    rewrite (proj2 (Z.ltb_lt _ _) Hh), (proj2 (Z.ltb_lt _ _) Hm); reflexivity.
Qed.

Lemma parse_fraction_text f z :
  frac_ok f -> parse_fraction (frac_text f ++ zone_text z) = Some (frac_val f, zone_text z).
Proof.
  unfold parse_fraction. destruct f as [ds|]; cbn [frac_text frac_val frac_ok app is_point].
  - intros (Hd & Hl). rewrite take_digits_app by (assumption || apply zone_text_head).
    cbn [Nat.add]. rewrite !(proj2 (Nat.leb_le _ _)) by lia. reflexivity.
  - intros _. destruct z as [| |[|] h m]; reflexivity.
Qed.

Definition iso_time_text (sep : ascii) (h2 mi2 s2 : list ascii) (f : option (list ascii)) (z : zone_spec) : list ascii :=
  sep :: h2 ++ ":"%char :: mi2 ++ ":"%char :: s2 ++ frac_text f ++ zone_text z.

Lemma parse_iso_datetime y4 m2 d2 sep h2 mi2 s2 f z :
  fields_ok [(y4, 4%nat); (m2, 2%nat); (d2, 2%nat); (h2, 2%nat); (mi2, 2%nat); (s2, 2%nat)] ->
  is_sep sep = true -> frac_ok f -> zone_ok z ->
  parse_iso (iso_date_text y4 m2 d2 (iso_time_text sep h2 mi2 s2 f z))
  = if valid_date (dval 0 y4) (dval 0 m2) (dval 0 d2) && valid_time (dval 0 h2) (dval 0 mi2) (dval 0 s2)
    then IsoS (mkStamp ((days_of_civil (dval 0 y4) (dval 0 m2) (dval 0 d2) * DAY
                         + dval 0 h2 * 3600 + dval 0 mi2 * 60 + dval 0 s2) * US + frac_val f) (zone_val z))
    else IsoBad.
Proof.
  intros H Hsep Hf Hz. unfold parse_iso. rewrite (iso_date_fields _ _ _ _ _ H).
  do 3 apply fields_ok_cons, proj2 in H. repeat (apply fields_ok_cons in H; destruct H as [[? ?] H]).
  unfold iso_time_text. rewrite Hsep. cbn [negb].
  (* the second chain reads the time fields, the fraction and the zone *)
  set (time := obind (take_n_digits 2 _ 0) _).
  assert (Ht : time = Some (dval 0 h2, dval 0 mi2, dval 0 s2, frac_val f, zone_val z)).
  { unfold time.
    rewrite (take_n_digits_app 2 h2) by assumption. cbn [obind]. rewrite expect_char_hit. cbn [obind].
    rewrite (take_n_digits_app 2 mi2) by assumption. cbn [obind]. rewrite expect_char_hit. cbn [obind].
    rewrite (take_n_digits_app 2 s2) by assumption. cbn [obind].
    rewrite parse_fraction_text by assumption. cbn [obind].
    rewrite parse_zone_text by assumption. reflexivity. }
  rewrite Ht. reflexivity.
Qed.

(* a text that starts with a digit is neither a keyword nor a relative bound *)
Lemma spec_of_text_digit_first c r :
  is_digit c = true ->
  spec_of_text (string_of_list_ascii (c :: r))
  = match parse_iso (c :: r) with IsoD d => SDate d | IsoS s => SStamp s | IsoBad => SBad | IsoUnsup => SUnsup end.
Proof.
  intros H. unfold spec_of_text, chars, parse_rel.
  destruct (not_keyword c r) as (-> & ->); try (intros ->; discriminate H).
  rewrite list_ascii_of_string_of_list_ascii, rel_groups_no_sign by (apply digit_char_facts, H).
  reflexivity.
Qed.

Lemma spec_of_text_iso y4 m2 d2 tail more :
  fields_ok ((y4, 4%nat) :: more) ->
  spec_of_text (string_of_list_ascii (iso_date_text y4 m2 d2 tail))
  = match parse_iso (iso_date_text y4 m2 d2 tail) with
    | IsoD d => SDate d | IsoS s => SStamp s | IsoBad => SBad | IsoUnsup => SUnsup
    end.
Proof.
  intros H. apply fields_ok_cons in H as ((Hd & Hl) & _).
  destruct y4 as [|c r]; [discriminate Hl|]. apply all_digits_cons in Hd as (Hc & _).
  apply spec_of_text_digit_first. assumption.
Qed.

Lemma random_number_draw_inj mn mx step k k' :
  mn <= mx -> 1 <= step -> 0 <= k < (mx - mn) / step + 1 -> 0 <= k' < (mx - mn) / step + 1 ->
  random_number mn mx step (Some k) = random_number mn mx step (Some k') -> k = k'.
Proof. intros H Hs Hk Hk' E. rewrite !random_number_draw in E by assumption. injection E as E. nia. Qed.

Lemma reseeded_source_misses_an_end mn mx step draw es :
  mn + step <= mx -> 1 <= step -> stuck draw es ->
  ~ (In (Ok mn) (values_over mn mx step draw es) /\
     In (Ok (mx - (mx - mn) mod step)) (values_over mn mx step draw es)).
Proof.
  intros H Hs St (I1 & I2). unfold values_over, number_at in *.
  apply in_map_iff in I1 as (e1 & E1 & He1). apply in_map_iff in I2 as (e2 & E2 & He2).
  rewrite (St e1 e2 He1 He2), E2 in E1. injection E1 as E1.
  pose proof (Z.mod_pos_bound (mx - mn) step ltac:(lia)). lia.
Qed.
