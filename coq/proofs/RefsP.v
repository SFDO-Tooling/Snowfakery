(* C02 over the interpreter.  An id i of table T is "issued" when 1 <= i <= last_id T.  The invariant
   [issued]: every id the state holds anywhere - cells, slots, written references ([J]), reference
   values in fields and variables, the row history ([V]) - has been issued.  With C01 (every issued
   id of a visible table is written by the end of the iteration) no written reference dangles. *)
From Coq Require Import ZArith List Lia Bool Permutation ZifyBool.
From SFV Require Import Base Interp.
From SFV Require Import RandRange RowHistory.
From SFV.P Require Import BaseP InterpP InterpHeapP IdsP.
Import ListNotations. Open Scope Z_scope.

Definition Bd (s : st) : Prop :=
  (forall c, In c (heap s) -> 1 <= c_id c <= last_id s (c_table c)) /\
  (forall n sl i, In (n, sl) (slots s) -> s_alloc sl = Some i -> 1 <= i <= last_id s (s_table sl)) /\
  (forall T, 0 <= last_id s T).

Definition refs_bounded (s : st) : Prop :=
  forall row n T i, In row (out s) -> In (n, ORef T i) (snd row) -> 1 <= i <= last_id s T.

Definition mono (s s' : st) : Prop := forall T, last_id s T <= last_id s' T.

Definition J (s : st) : Prop := Bd s /\ refs_bounded s.

Definition val_ok (s : st) (v : value) : Prop :=
  match v with VRef T i => 1 <= i <= last_id s T | _ => True end.

(* what [random_reference_V] needs of the row history: a draw by nickname is the id of a saved row, a
   draw by table name is a number between 1 and the id saved last *)
Definition hist_ok_on (last : string -> Z) (h : rh) : Prop :=
  (forall r, In r (hrows h) -> 1 <= h_id r <= last (h_table r)) /\
  (forall name v, lookupZ name (tc h) = Some v -> v <= last name) /\
  (forall k v, lookupZ k (tc h) = Some v -> 0 <= v) /\
  (forall k v, lookupZ k (lc h) = Some v -> 0 <= v) /\
  (forall k v, In (k, v) (nc h) -> 0 <= v).

Definition hist_ok (s : st) : Prop := hist_ok_on (last_id s) (hist (rnd s)).

Definition V (s : st) : Prop :=
  (forall c n v, In c (heap s) -> In (n, v) (c_fields c) -> val_ok s v) /\
  (forall f n v, In f (frames s) -> In (n, v) (f_vars f) -> val_ok s v) /\
  hist_ok s.

(* J reads the ids, slots, heap and output of a state, V its ids, heap, frames and row history; an
   update of any other component leaves both as they are, by computation. *)
Definition issued (s : st) : Prop := J s /\ V s.

Lemma mono_refl s : mono s s.
Proof. intros T. lia. Qed.
Lemma mono_trans a b c : mono a b -> mono b c -> mono a c.
Proof. intros H1 H2 T. specialize (H1 T). specialize (H2 T). lia. Qed.
Lemma mono_ids s s' : ids s' = ids s -> mono s s'.
Proof. intros E T. unfold last_id. rewrite E. lia. Qed.

Lemma mono_generate s t : mono s (fst (generate_id s t)).
Proof. intros T. rewrite last_id_generate. destruct (String.eqb_spec T t); [subst T|]; lia. Qed.

Lemma val_ok_mono s s' v : mono s s' -> val_ok s v -> val_ok s' v.
Proof. destruct v; auto. cbn [val_ok]. intros M H. specialize (M table). lia. Qed.

(* raising the counters loosens every bound *)
Lemma J_raise s s' :
  mono s s' -> slots s' = slots s -> heap s' = heap s -> out s' = out s -> J s -> J s'.
Proof.
  intros M Hs Hh Ho [(B1 & B2 & B3) R]. unfold J, Bd, refs_bounded. rewrite Hs, Hh, Ho. splits.
  - intros c Hc. specialize (B1 c Hc). specialize (M (c_table c)). lia.
  - intros n sl i Hin Ha. specialize (B2 n sl i Hin Ha). specialize (M (s_table sl)). lia.
  - intros T. specialize (B3 T). specialize (M T). lia.
  - intros row n T i Hr Hin. specialize (R row n T i Hr Hin). specialize (M T). lia.
Qed.

Lemma V_raise s s' :
  mono s s' -> heap s' = heap s -> frames s' = frames s -> hist (rnd s') = hist (rnd s) -> V s -> V s'.
Proof.
  intros M Hh Hf Hr (V1 & V2 & (H1 & H2 & H3 & H4 & H5)). unfold V, hist_ok, hist_ok_on. rewrite Hh, Hf, Hr. splits.
  - intros c n v Hc Hin. eapply val_ok_mono; [exact M|]. eapply V1; eassumption.
  - intros f n v Hc Hin. eapply val_ok_mono; [exact M|]. eapply V2; eassumption.
  - intros r Hr'. specialize (H1 r Hr'). specialize (M (h_table r)). lia.
  - intros name v Hv. specialize (H2 name v Hv). specialize (M name). lia.
  - exact H3.
  - exact H4.
  - exact H5.
Qed.

Lemma In_assign {A} k (v : A) l x : In x (assign k v l) -> x = (k, v) \/ In x l.
Proof.
  induction l as [|[k' v'] r IH]; cbn [assign].
  - intros [H|[]]. left. congruence.
  - destruct (String.eqb k k'); cbn [In]; intros [H|H]; auto.
    destruct (IH H); auto.
Qed.

Lemma J_assign_slot s n sl :
  J s -> (forall i, s_alloc sl = Some i -> 1 <= i <= last_id s (s_table sl)) ->
  J (upd_slots s (assign n sl (slots s))).
Proof.
  intros [(B1 & B2 & B3) R] Hb. split; [split; [exact B1|split; [|exact B3]]|exact R].
  intros n' sl' i Hin. apply In_assign in Hin. destruct Hin as [[= _ ->]|Hin]; [apply Hb|exact (B2 n' sl' i Hin)].
Qed.

Lemma generate_id_J s t : J s ->
  J (fst (generate_id s t)) /\ 1 <= snd (generate_id s t) <= last_id (fst (generate_id s t)) t.
Proof.
  intros HJ. split; [eapply J_raise; [apply mono_generate|reflexivity..|exact HJ]|].
  rewrite last_id_generate, String.eqb_refl. destruct HJ as [(_ & _ & B3) _]. specialize (B3 t).
  cbn [generate_id snd]. lia.
Qed.

Lemma touch_slot_J {s n s' i} : touch_slot s n = Ok (s', i) -> J s ->
  J s' /\ forall sl, lookup n (slots s) = Some sl -> 1 <= i <= last_id s' (s_table sl).
Proof.
  unfold touch_slot. destruct (lookup n (slots s)) as [sl|] eqn:Hl; [|discriminate].
  destruct (s_alloc sl) as [j|] eqn:Ha; intros [= <- <-] HJ.
  - split; [exact HJ|]. intros sl' [= <-]. destruct (lookup_In Hl) as (k & Hin).
    destruct HJ as [(_ & B2 & _) _]. exact (B2 k sl j Hin Ha).
  - destruct (generate_id_J s (s_table sl) HJ) as [J1 Hb].
    split; [|intros sl' [= <-]; exact Hb].
    apply (J_assign_slot (fst (generate_id s (s_table sl)))); [exact J1|]. intros i [= <-]. exact Hb.
Qed.

Lemma touches_mono {s s'} : touches s s' -> mono s s'.
Proof.
  induction 1 as [s|s s1 n s2 i _ IH H]; [apply mono_refl|].
  eapply mono_trans; [exact IH|]. unfold touch_slot in H.
  destruct (lookup n (slots s1)) as [sl|]; [|discriminate].
  destruct (s_alloc sl); injection H as <- _; [apply mono_refl|apply (mono_generate s1)].
Qed.

Lemma touches_J s s' : touches s s' -> J s -> J s'.
Proof. induction 1 as [s|s s1 n s2 i _ IH H]; [auto|]. intros HJ. apply (touch_slot_J H (IH HJ)). Qed.

Lemma touches_V s s' : touches s s' -> V s -> V s'.
Proof.
  intros H. apply V_raise; [apply touches_mono, H|..]; rewrite (touches_only H); reflexivity.
Qed.

Lemma touches_issued {s s'} : touches s s' -> issued s -> issued s'.
Proof. intros H [HJ HV]. split; [eapply touches_J|eapply touches_V]; eassumption. Qed.

Lemma In_cur_frame s f : frames s = f :: tl (frames s) -> In f (frames s).
Proof. intros ->. left. reflexivity. Qed.

Definition frame_ok (s : st) (f : frame) : Prop := forall n v, In (n, v) (f_vars f) -> val_ok s v.

Lemma frames_ok s : V s -> Forall (frame_ok s) (frames s).
Proof. intros (_ & Vb & _). apply Forall_forall. intros f Hf n v. exact (Vb f n v Hf). Qed.

Lemma cur_frame_ok s : V s -> frame_ok s (cur_frame s).
Proof. intros HV. unfold cur_frame. destruct (frames_ok s HV); [intros n v []|assumption]. Qed.

Lemma row_attr_ok {s h c f w} :
  V s -> nth_error (heap s) h = Some c -> row_attr c f = Some w -> val_ok s w.
Proof.
  intros (Va & _) Hc. unfold row_attr. destruct (String.eqb f "id"); [intros [= <-]; exact I|].
  intros Hw. destruct (lookup_In Hw) as (k & Hin). exact (Va c k w (nth_error_In _ _ Hc) Hin).
Qed.

Lemma lookup_name_ok {e s n v} : V s -> lookup_name e s n = Ok (Some v) -> val_ok s v.
Proof.
  intros HV. unfold lookup_name.
  destruct (reserved_name n); [discriminate|].
  destruct (lookup n (f_vars (cur_frame s))) as [w|] eqn:E1.
  { intros [= <-]. destruct (lookup_In E1) as (k & Hin). exact (cur_frame_ok s HV k w Hin). }
  destruct (match cur_obj s with Some c => row_attr c n | None => None end) as [w|] eqn:E2.
  { intros [= <-]. unfold cur_obj in E2. destruct (f_obj (cur_frame s)) as [h|]; [|discriminate].
    destruct (nth_error (heap s) h) as [c|] eqn:Hc; [|discriminate]. exact (row_attr_ok HV Hc E2). }
  (* names of objects, options and builtins are never references *)
  destruct v; try (intros; exact I).
  destruct (object_name s n) as [w|] eqn:E3.
  { intros [= ->]. rewrite object_name_precedence in E3.
    destruct (lookup n (last_by_table s)), (lookup n (nick_objs s)), (lookup n (p_tables s)),
      (lookup n (p_nicks s)), (lookup n (slots s)); discriminate. }
  destruct (lookup n (options e)) as [[]|]; try discriminate.
  destruct (_ || _); [destruct (cur_obj s); discriminate|].
  destruct (String.eqb n "child_index"); [destruct (cur_obj s); discriminate|].
  destruct (String.eqb n "this"); [destruct (f_obj (cur_frame s))|]; discriminate.
Qed.

Lemma find_cell_In {t i l c} : find_cell t i l = Some c -> In c l.
Proof.
  induction l as [|c0 l IH]; cbn [find_cell]; [discriminate|].
  destruct (_ && _); [intros [= <-]; left; reflexivity|intros H; right; auto].
Qed.

(* a field read through a random_reference comes out of a heap cell, so it is as good as the heap *)
Lemma hist_attr_ok s t i f w : V s -> hist_attr (hist (rnd s)) (heap s) t i f = Ok w -> val_ok s w.
Proof.
  intros (Va & _) H. unfold hist_attr in H.
  destruct (String.eqb f "id"); [injection H as <-; exact I|].
  destruct (_ || _); [discriminate|]. destruct (negb _); [discriminate|].
  destruct (find_cell t i (heap s)) as [c|] eqn:Hc; [|discriminate].
  destruct (lookup f (c_fields c)) as [w0|] eqn:Hw; [|discriminate].
  destruct (lookup_In Hw) as (k & Hin).
  pose proof (Va c k w0 (find_cell_In Hc) Hin) as Hok.
  destruct w0; try discriminate; injection H as <-; exact Hok.
Qed.

(* Formulas yield no references: a number or string parsed from the text, or the value of the
   one expression, where version 3 refuses a reference. *)
Lemma look_for_number_not_ref {t T i} : look_for_number t <> Ok (VRef T i).
Proof.
  unfold look_for_number. destruct (has_dot t); [discriminate|].
  destruct t; [discriminate|]. destruct (first_is_zero _); [discriminate|].
  destruct (all_digits _); discriminate.
Qed.

Lemma native_str_not_ref {t T i} : native_str t <> Ok (VRef T i).
Proof.
  unfold native_str. destruct t; [discriminate|].
  destruct (negb (str_all is_sigma _)); [discriminate|].
  destruct (first_is is_space _); [discriminate|].
  destruct (_ && _); [discriminate|].
  destruct (dec_literal _); [discriminate|].
  destruct (String.eqb _ "None"); [discriminate|].
  destruct (_ || _); discriminate.
Qed.

Lemma render_formula_ok {e ps s s' v} : render_formula e ps s = Ok (s', v) -> val_ok s' v.
Proof.
  intros H. destruct v; try exact I. exfalso. unfold render_formula in H. destruct (version e =? 3).
  - destruct ps as [|[tx|x] [|p2 r]];
      try (dbind H as [s1 t]; dbind H as w0; injection H as _ ->; exact (native_str_not_ref E0)).
    dbind H as [s1 w]. destruct w; try discriminate.
    dbind H as w0. injection H as _ ->. exact (native_str_not_ref E0).
  - dbind H as [s1 t]. dbind H as w0. injection H as _ ->. exact (look_for_number_not_ref E0).
Qed.

Lemma getattr_path_ok {s v p s' w} : getattr_path s v p = Ok (s', w) -> V s -> val_ok s' w.
Proof.
  intros H HV. unfold getattr_path in H. destruct v; try discriminate.
  - destruct (nth_error (heap s) h) as [c|] eqn:Hc; [|discriminate].
    destruct (row_attr c p) as [w0|] eqn:Hw; [|discriminate]. injection H as <- <-.
    exact (row_attr_ok HV Hc Hw).
  - destruct (String.eqb p "id"); [|discriminate]. dbind H as [s2 i]. injection H as _ <-. exact I.
  - dbind H as w0. injection H as <- <-. exact (hist_attr_ok _ _ _ _ _ HV E).
Qed.

Lemma follow_path_ok parts : forall s v s' w,
  follow_path s v parts = Ok (s', w) -> V s -> val_ok s v -> val_ok s' w.
Proof.
  induction parts as [|p r IH]; intros s v s' w H HV Hv; cbn [follow_path] in H.
  - injection H as <- <-. exact Hv.
  - dbind H as [s1 w1]. apply (IH _ _ _ _ H).
    + exact (touches_V _ _ (getattr_path_touches E) HV).
    + exact (getattr_path_ok E HV).
Qed.

Lemma reference_ok {e path s s' v} : reference e path s = Ok (s', v) -> V s -> val_ok s' v.
Proof.
  intros H HV. unfold reference in H. destruct (split_dot path) as [|first parts]; [discriminate|].
  dbind H as o. destruct o as [v0|]; [|destruct parts; discriminate].
  dbind H as [s1 target]. pose proof (follow_path_ok _ _ _ _ _ E0 HV (lookup_name_ok HV E)) as Ht.
  destruct target; try discriminate.
  - injection H as _ <-. exact I.
  - dbind H as [s2 i]. injection H as _ <-. exact I.
  - injection H as <- <-. exact Ht.
Qed.

Lemma find_nick_row_In {rows table n d id} :
  find_nick_row rows table n d = Some id -> exists r, In r rows /\ h_table r = table /\ h_id r = id.
Proof.
  induction rows as [|r rest IH]; cbn [find_nick_row]; [discriminate|].
  destruct (_ && _ && _) eqn:E.
  - intros [= <-]. apply andb_true_iff, proj1, andb_true_iff, proj1, String.eqb_eq in E.
    exists r. cbn [In]. auto.
  - intros H. destruct (IH H) as (r0 & Hin & Hr0). exists r0. cbn [In]. auto.
Qed.

Lemma get0_nonneg k l : (forall k' v, lookupZ k' l = Some v -> 0 <= v) -> 0 <= get0 k l.
Proof. intros H. unfold get0. destruct (lookupZ k l) eqn:E; [eapply H; exact E|lia]. Qed.

Lemma random_reference_V e to s s' v : random_reference e to s = Ok (s', v) -> V s -> V s' /\ val_ok s' v.
Proof.
  unfold random_reference. intros H HVs.
  destruct (negb (rr_ok e)); [discriminate|].
  dbind H as [[[nick table] lo] hi].
  destruct (draws (rnd s)) as [|r rest]; [discriminate|].
  destruct ((0 <=? r) && (r <? hi - lo + 1)) eqn:Er; [|discriminate].
  dbind H as [t i]. injection H as <- <-.
  split; [revert HVs; apply V_raise; [apply mono_ids|..]; reflexivity|].
  cbn [val_ok]. change (last_id (upd_rnd s _) t) with (last_id s t).
  destruct HVs as (_ & _ & (H1 & H2 & _ & H4 & _)).
  unfold ref_range in E.
  destruct (lookupS to (n2t (hist (rnd s)))) as [t0|].
  - (* by nickname: the id of a saved row *)
    destruct (get0 to (nc (hist (rnd s))) =? 0); [discriminate|]. injection E as <- <- <- <-.
    cbn [resolve_draw] in E0. destruct (find_nick_row _ _ _ _) as [id|] eqn:Ef; [|discriminate].
    injection E0 as <- <-. destruct (find_nick_row_In Ef) as (r0 & Hin & <- & <-).
    exact (H1 r0 Hin).
  - (* by table name: a number between 1 and the id saved last *)
    destruct (lookupZ to (tc (hist (rnd s)))) as [m|] eqn:Em; [|discriminate].
    destruct (m =? 0); [discriminate|]. injection E as <- <- <- <-.
    cbn [resolve_draw] in E0. injection E0 as <- <-.
    specialize (H2 to m Em).
    pose proof (get0_nonneg to (lc (hist (rnd s))) H4) as Hg.
    destruct (m <? get0 to (lc (hist (rnd s))) + 1); lia.
Qed.

(* the association lists of the row history are those of the interpreter, at type Z *)
Lemma lookupZ_lookup k l : lookupZ k l = lookup k l.
Proof. induction l as [|[k' v] r IH]; cbn [lookupZ lookup]; [reflexivity|]. rewrite IH. reflexivity. Qed.

Lemma assignZ_assign k v l : assignZ k v l = assign k v l.
Proof. induction l as [|[k' v'] r IH]; cbn [assignZ assign]; [reflexivity|]. rewrite IH. reflexivity. Qed.

Lemma lookupZ_assignZ k k' v l : lookupZ k (assignZ k' v l) = if String.eqb k k' then Some v else lookupZ k l.
Proof.
  rewrite !lookupZ_lookup, assignZ_assign.
  destruct (String.eqb_spec k k') as [->|N]; [apply lookup_assign_same|apply lookup_assign_other; exact N].
Qed.

Lemma fold_assignZ_nonneg (l : list (string * Z)) : forall acc,
  (forall k v, lookupZ k acc = Some v -> 0 <= v) -> (forall k v, In (k, v) l -> 0 <= v) ->
  forall k v, lookupZ k (fold_left (fun a nv => assignZ (fst nv) (snd nv) a) l acc) = Some v -> 0 <= v.
Proof.
  induction l as [|[k0 v0] r IH]; intros acc Ha Hl; cbn [fold_left]; [exact Ha|].
  apply IH; [|intros k v Hin; apply (Hl k v); right; exact Hin].
  intros k v. cbn [fst snd]. rewrite lookupZ_assignZ. destruct (String.eqb k k0); [|apply Ha].
  intros [= <-]. apply (Hl k0 v0). left. reflexivity.
Qed.

Lemma lookupZ_In k v l : In (k, v) l -> exists v', lookupZ k l = Some v'.
Proof.
  induction l as [|[k' v'] r IH]; [intros []|]. cbn [In lookupZ]. intros [Heq|Hin].
  - injection Heq as -> ->. rewrite String.eqb_refl. eexists. reflexivity.
  - destruct (String.eqb k k'); [eexists; reflexivity|apply IH; exact Hin].
Qed.

Lemma save_row_n2t h t nick id : n2t (save_row h t nick id) = n2t h.
Proof. unfold save_row. destruct nick; reflexivity. Qed.

Lemma save_row_ok last h t nick id :
  hist_ok_on last h -> 1 <= id <= last t -> hist_ok_on last (save_row h t nick id).
Proof.
  intros (H1 & H2 & H3 & H4 & H5) Hid.
  (* the saved rows and the table counters do not depend on the nickname *)
  destruct nick as [n|]; unfold hist_ok_on, save_row; cbn [hrows tc lc nc];
    (splits;
     [intros r Hr; apply in_app_or in Hr; destruct Hr as [Hr|[<-|[]]]; [exact (H1 r Hr)|exact Hid]
     |intros k v; rewrite lookupZ_assignZ; destruct (String.eqb_spec k t) as [->|_]; [intros [= <-]; lia|apply H2]
     |intros k v; rewrite lookupZ_assignZ; destruct (String.eqb k t); [intros [= <-]; lia|apply H3]
     |exact H4|]).
  - intros k v Hin. rewrite assignZ_assign in Hin. apply In_assign in Hin.
    destruct Hin as [[= _ ->]|Hin]; [|exact (H5 k v Hin)].
    assert (0 <= get0 n (nc h)); [|lia].
    apply get0_nonneg. intros k' v' Hv. rewrite lookupZ_lookup in Hv.
    destruct (lookup_In Hv) as (k2 & Hin). exact (H5 k2 v' Hin).
  - exact H5.
Qed.

Lemma remember_history_V e s t nick id s' :
  remember_history e s t nick id = Ok s' -> V s -> 1 <= id <= last_id s t -> V s'.
Proof.
  unfold remember_history. intros H (Va & Vb & Hh) Hid.
  destruct (existsb (String.eqb t) (hist_tables e)); injection H as <-; [|exact (conj Va (conj Vb Hh))].
  exact (conj Va (conj Vb (save_row_ok _ _ t nick id Hh Hid))).
Qed.

Lemma reset_hist_V s : V s -> V (reset_hist s).
Proof.
  intros (Va & Vb & (H1 & H2 & H3 & H4 & H5)).
  exact (conj Va (conj Vb (conj H1 (conj H2 (conj H3 (conj H3 H5)))))).
Qed.

Lemma issued_frames s fs : issued s -> Forall (frame_ok s) fs -> issued (upd_frames s fs).
Proof.
  intros [HJ (Va & _ & Hh)] Hb. rewrite Forall_forall in Hb.
  exact (conj HJ (conj Va (conj (fun f n v Hf => Hb f Hf n v) Hh))).
Qed.

Lemma issued_push_frame s : issued s -> issued (push_frame s).
Proof.
  intros HS. apply issued_frames; [exact HS|].
  constructor; [apply cur_frame_ok, HS|apply frames_ok, HS].
Qed.

Lemma issued_pop_frame {s v} : issued s -> val_ok s v -> issued (pop_frame s) /\ val_ok (pop_frame s) v.
Proof.
  intros HS Hv. unfold pop_frame. destruct (frames_ok s (proj2 HS)) as [|f r Hf Hr]; [auto|].
  split; [apply issued_frames; assumption|exact Hv].
Qed.

Lemma issued_set_var s n v : issued s -> val_ok s v -> issued (set_var s n v).
Proof.
  intros HS Hv. unfold set_var. destruct (frames_ok s (proj2 HS)) as [|f r Hf Hr]; [exact HS|].
  apply issued_frames; [exact HS|]. constructor; [|exact Hr].
  intros n' v' Hin. apply In_assign in Hin. destruct Hin as [[= _ <-]|Hin]; [exact Hv|exact (Hf n' v' Hin)].
Qed.

Lemma In_set_nth {A} (l : list A) : forall i x y, In y (set_nth i x l) -> y = x \/ In y l.
Proof.
  induction l as [|z r IH]; intros i x y; destruct i; cbn [set_nth In]; try tauto.
  - intuition congruence.
  - intros [H|H]; [tauto|]. destruct (IH _ _ _ H); tauto.
Qed.

Lemma issued_set_field {s h n v} : issued s -> val_ok s v -> issued (set_field s h n v).
Proof.
  intros HS Hv. unfold set_field. destruct (nth_error (heap s) h) as [c0|] eqn:Hc; [|exact HS].
  apply nth_error_In in Hc. destruct HS as [[(B1 & B2) R] (Va & Vb)].
  split; [split; [split; [|exact B2]|exact R]|split; [|exact Vb]].
  - (* the table and id of the cell stay *)
    intros c Hin. apply In_set_nth in Hin. destruct Hin as [->|Hin]; [exact (B1 c0 Hc)|exact (B1 c Hin)].
  - intros c n' v' Hin Hf. apply In_set_nth in Hin. destruct Hin as [->|Hin]; [|exact (Va c n' v' Hin Hf)].
    apply In_assign in Hf. destruct Hf as [[= _ <-]|Hf]; [exact Hv|exact (Va c0 n' v' Hc Hf)].
Qed.

Lemma new_row_id_spec {s T nick s1 id} :
  new_row_id s T nick = (s1, id) ->
  mono s s1 /\ (issued s -> issued s1 /\ 1 <= id <= last_id s1 T).
Proof.
  intros H. destruct (new_row_id_cases H) as [(n & Hc)|Hg].
  - destruct (consume_for_spec Hc) as (sl & Hl & Ha & _ & <- & ->).
    split; [apply mono_ids; reflexivity|]. intros [HJ HV].
    destruct (lookup_In Hl) as (k & Hin). pose proof (proj1 (proj2 (proj1 HJ)) k sl id Hin Ha) as Hb.
    split; [split; [|exact HV]|exact Hb]. apply J_assign_slot; [exact HJ|]. intros i [= <-]. exact Hb.
  - unfold generate_id in Hg. injection Hg as <- <-.
    split; [apply (mono_generate s T)|]. intros [HJ HV].
    destruct (generate_id_J s T HJ) as [J1 Hb].
    split; [split; [exact J1|]|exact Hb]. revert HV.
    apply V_raise; [apply (mono_generate s T)|reflexivity..].
Qed.

(* The name maps are not part of the invariant.  Stated for any s', where the two sides are seen to
   agree at once; with a new row in its place the comparison first unfolds the registration. *)
Lemma issued_scope s s' : issued (upd_frames s (frames s')) -> issued (upd_scope s s').
Proof. intros H. exact H. Qed.

(* the new cell has no fields yet, and making it the current object leaves the variables alone *)
Lemma issued_new_row {s T} nick once {id} i :
  issued s -> 1 <= id <= last_id s T -> issued (new_row s T nick once id i).
Proof.
  intros [[(B1 & B2) R] (Va & Vb)] Hb.
  assert (HS : issued (upd_heap s (heap s ++ [mkCell T id i []]))).
  { split; [split; [split; [|exact B2]|exact R]|split; [|exact Vb]].
    - intros c Hc. apply in_app_or in Hc. destruct Hc as [Hc|[<-|[]]]; [exact (B1 c Hc)|exact Hb].
    - intros c n v Hc Hf. apply in_app_or in Hc. destruct Hc as [Hc|[<-|[]]]; [exact (Va c n v Hc Hf)|destruct Hf]. }
  rewrite new_row_only. apply issued_scope. rewrite new_row_frames. apply issued_frames; [exact HS|].
  pose proof (frames_ok _ (proj2 HS)) as F. cbn [frames upd_heap] in F.
  destruct F as [|f r Hf Hr]; constructor; assumption.
Qed.

Lemma flatten_fields_refs fs : forall s s' l,
  flatten_fields s fs = Ok (s', l) -> J s -> (forall n v, In (n, v) fs -> val_ok s v) ->
  forall n T i, In (n, ORef T i) l -> 1 <= i <= last_id s' T.
Proof.
  induction fs as [|[n v] r IH]; intros s s' l H HJ Hv; cbn [flatten_fields] in H.
  - injection H as _ <-. intros ? ? ? [].
  - destruct (hidden n); [apply (IH _ _ _ H HJ); intros n0 v0 Hin; apply (Hv n0 v0); right; exact Hin|].
    dbind H as [s1 o]. dbind H as [s2 rest]. injection H as <- <-.
    (* the head: a [touches] step, and a reference it yields is bounded afterwards *)
    assert (H1 : touches s s1 /\ forall T i, o = ORef T i -> 1 <= i <= last_id s1 T).
    { destruct v; try discriminate; try (injection E as <- <-; split; [apply touches_refl|discriminate]).
      - destruct (nth_error (heap s) h) as [c|] eqn:Hc; [|discriminate]. injection E as <- <-.
        split; [apply touches_refl|]. intros T i [= <- <-]. apply HJ. exact (nth_error_In _ _ Hc).
      - destruct (lookup name (slots s)) as [sl|] eqn:Hl; [|discriminate]. dbind E as [s3 i]. injection E as <- <-.
        split; [exact (touch_slot_touches E1)|]. intros T i' [= <- <-].
        exact (proj2 (touch_slot_J E1 HJ) sl Hl).
      - injection E as <- <-. split; [apply touches_refl|]. intros T i' [= <- <-].
        exact (Hv n _ (or_introl eq_refl)). }
    destruct H1 as [T1 Hb1]. pose proof (touches_mono T1) as M1.
    pose proof (touches_mono (flatten_fields_touches _ _ _ _ E0)) as M2.
    intros n' T i [[= _ ->]|Hin].
    + specialize (Hb1 T i eq_refl). specialize (M2 T). lia.
    + apply (IH _ _ _ E0 (touches_J _ _ T1 HJ)) with (n := n'); [|exact Hin].
      intros n0 v0 Hin0. apply (val_ok_mono s); [exact M1|]. apply (Hv n0 v0). right. exact Hin0.
Qed.

Lemma write_row_issued s h s' : write_row s h = Ok s' -> issued s -> issued s'.
Proof.
  unfold write_row. destruct (nth_error (heap s) h) as [c|] eqn:Hc; [|discriminate].
  destruct (hidden (c_table c)); [intros [= <-] HS; exact HS|].
  intros H HS. dbind H as [s1 fs]. injection H as <-.
  pose proof (flatten_fields_touches _ _ _ _ E) as Ht.
  destruct (touches_issued Ht HS) as [[B1 R1] V1]. destruct HS as [HJ (Va & _)].
  split; [split; [exact B1|]|exact V1].
  intros row n T i [<-|Hr] Hin; [|exact (R1 row n T i Hr Hin)].
  destruct Hin as [[=]|Hin]. apply (flatten_fields_refs _ _ _ _ E HJ) with (n := n); [|exact Hin].
  intros n0 v0. apply (Va c). exact (nth_error_In _ _ Hc).
Qed.

Lemma exec_mono {e tk s s' r} : exec e tk s s' r -> mono s s'.
Proof.
  apply (exec_preorder e mono mono_refl mono_trans (@touches_mono)); intros.
  - apply mono_ids. reflexivity.
  - apply mono_ids. rewrite set_field_only. reflexivity.
  - destruct H as [x ->]. apply mono_ids. reflexivity.
  - apply (new_row_id_spec H).
  - apply mono_ids. rewrite new_row_only. reflexivity.
  - apply mono_ids. rewrite remember_deps_only. reflexivity.
  - destruct (write_row_touches H) as (s1 & o & T & ->). exact (touches_mono T).
Qed.

Lemma exec_issued {e tk s s' r} : exec e tk s s' r -> issued s -> issued s' /\ val_ok s' (ret_value r).
Proof.
  induction 1; intros HS; try exact (conj HS I).   (* tasks that return at once with no value *)
  - apply IHexec2, IHexec1, HS.
  - exact (conj (proj1 (IHexec HS)) I).
  - destruct (IHexec (issued_push_frame _ HS)) as [S1 R1].
    destruct (issued_pop_frame S1 R1) as [S2 R2]. exact (conj (issued_set_var _ _ _ S2 R2) I).
  - destruct (IHexec (issued_push_frame _ HS)) as [S1 R1]. exact (issued_pop_frame S1 R1).
  - destruct (IHexec1 (issued_push_frame _ HS)) as [S1 _].
    destruct (IHexec2 S1) as [S2 R2]. exact (issued_pop_frame S2 R2).
  - split; [exact HS|destruct last; exact I].
  - apply IHexec2, IHexec1, issued_set_var; [exact HS|exact I].
  - (* the row: created with an issued id, which the counter is still above when the row is saved *)
    destruct (proj2 (new_row_id_spec H) HS) as [S1 Hb].
    destruct (IHexec1 (issued_new_row _ _ i S1 Hb)) as [[J4 V4] _].
    pose proof (exec_mono H0 (t_table t)) as M4.
    rewrite new_row_only in M4. rewrite remember_deps_only in H2.
    assert (S5 : issued s5).
    { split; [destruct (remember_history_rnd H2) as [x ->]; exact J4|].
      apply (remember_history_V _ _ _ _ _ _ H2 V4). exact (conj (proj1 Hb) (Z.le_trans _ _ _ (proj2 Hb) M4)). }
    exact (conj (proj1 (IHexec2 (write_row_issued _ _ _ H3 S5))) I).
  - destruct (IHexec1 HS) as [S1 R1]. exact (IHexec2 (issued_set_field S1 R1)).
  - split; [exact HS|]. destruct v; try exact I.
    destruct (version e =? 3); [discriminate|destruct (look_for_number_not_ref H)].
  - split; [exact (touches_issued (render_formula_touches H) HS)|exact (render_formula_ok H)].
  - split; [exact (touches_issued (reference_touches H) HS)|exact (reference_ok H (proj2 HS))].
  - exact (IHexec HS).
  - destruct (random_reference_V _ _ _ _ _ H (proj2 HS)) as [V1 R1]. split; [|exact R1].
    destruct (random_reference_rnd H) as [x ->]. exact (conj (proj1 HS) V1).
Qed.

Theorem run_J fuel : forall e tk s s' r,
  run fuel e tk s = Ok (s', r) -> J s -> V s ->
  J s' /\ mono s s' /\ V s' /\ val_ok s' (ret_value r).
Proof.
  intros e tk s s' r H HJ HV. apply run_exec in H.
  destruct (exec_issued H (conj HJ HV)) as [[J1 V1] R1].
  exact (conj J1 (conj (exec_mono H) (conj V1 R1))).
Qed.

Lemma iteration_mono {e stmts c s s'} : iteration e stmts c s = Ok s' -> mono s s'.
Proof. intros H. destruct (iteration_exec H) as (s1 & r & E & _ & ->). exact (exec_mono E). Qed.

Lemma fresh_slots_unallocated {e n sl} i : In (n, sl) (fresh_slots e) -> s_alloc sl <> Some i.
Proof.
  unfold fresh_slots. intros Hin. apply in_map_iff in Hin.
  destruct Hin as ([n' t'] & [= _ <-] & _). discriminate.
Qed.

Lemma iteration_J e stmts c s s' : iteration e stmts c s = Ok s' -> J s -> V s -> J s' /\ mono s s' /\ V s'.
Proof.
  intros H HJ HV. pose proof (iteration_mono H) as M.
  destruct (iteration_exec H) as (s1 & r & E & _ & ->).
  destruct (exec_issued E (conj HJ HV)) as [[[(B1 & B2 & B3) R1] V1] _].
  split; [|split; [exact M|apply reset_hist_V; exact V1]].
  (* the fresh slots hold no ids *)
  split; [split; [exact B1|split; [|exact B3]]|exact R1].
  intros n sl i Hin Ha. destruct (fresh_slots_unallocated i Hin Ha).
Qed.

Lemma iterations_J {k e stmts c s s'} : iterations k e stmts c s = Ok s' -> J s -> V s -> J s' /\ mono s s' /\ V s'.
Proof.
  revert e stmts c s s'. induction k as [|k IH]; intros e stmts c s s' H HJ HV; cbn [iterations] in H.
  - injection H as <-. splits; [exact HJ|apply mono_refl|exact HV].
  - dbind H as s1. destruct (iteration_J _ _ _ _ _ E HJ HV) as (J1 & M1 & V1).
    destruct (IH _ _ _ _ _ H J1 V1) as (J2 & M2 & V2). splits; [exact J2|eapply mono_trans; eassumption|exact V2].
Qed.

Lemma written_In T o i : In i (written T o) -> exists r, In r o /\ fst r = T /\ orow_id r = [i].
Proof.
  unfold written. intros H. apply in_flat_map in H. destruct H as (r & Hr & Hi).
  destruct (String.eqb_spec (fst r) T) as [E|_]; [|destruct Hi].
  exists r. split; [exact Hr|]. split; [exact E|].
  unfold orow_id in *. destruct (snd r) as [|[n []] rest]; try destruct Hi as [<-|[]]; try destruct Hi. reflexivity.
Qed.

Lemma start_J s : start_ok s -> Bd s -> J s.
Proof. intros (_ & _ & _ & Ho) HB. split; [exact HB|]. intros ? ? ? ? Hx. rewrite Ho in Hx. destruct Hx. Qed.

Theorem no_dangling_run e stmts c k s0 s :
  start_ok s0 -> Bd s0 -> V s0 -> iterations k e stmts c s0 = Ok s ->
  forall row n T i, In row (out s) -> In (n, ORef T i) (snd row) -> hidden T = false ->
    (1 <= i <= last_id s0 T) \/ exists row', In row' (out s) /\ fst row' = T /\ orow_id row' = [i].
Proof.
  intros Hs0 HB HV0 H row n T i Hr Hin HT.
  destruct (iterations_J H (start_J _ Hs0 HB) HV0) as ([_ R] & _ & _).
  specialize (R row n T i Hr Hin).
  (* C01: the ids above the start counter are exactly those written *)
  destruct (ids_dense_run _ _ _ _ _ _ Hs0 H) as [_ HD]. destruct (HD T) as [Hle HP]. specialize (HP HT).
  destruct (Z_le_dec i (last_id s0 T)) as [Hold|Hnew]; [left; lia|right].
  apply written_In. apply (Permutation_in _ (Permutation_sym HP)). apply Zseq_In. lia.
Qed.

Lemma init_Bd e dr : Bd (init_st e dr).
Proof.
  split; [intros c []|split].
  - intros n sl i Hin Ha. destruct (fresh_slots_unallocated i Hin Ha).
  - intros T. unfold last_id. cbn. lia.
Qed.

Lemma hist_ok_on_empty last names : hist_ok_on last (mkRh [] [] [] [] names []).
Proof. unfold hist_ok_on. cbn. splits; intros; try contradiction; discriminate. Qed.

Lemma rh_init_ok (last : string -> Z) ids0 names :
  (forall k, last k = match lookup k ids0 with Some z => z | None => 0 end) ->
  (forall k, 0 <= last k) ->
  hist_ok_on last (rh_init ids0 names).
Proof.
  intros Hl Hnn.
  assert (Hc : forall k v, lookupZ k ids0 = Some v -> v = last k).
  { intros k v Hv. rewrite lookupZ_lookup in Hv. rewrite Hl, Hv. reflexivity. }
  unfold hist_ok_on, rh_init. cbn [hrows tc lc nc].
  splits; [intros r []| | | |intros k v []]; intros k v Hv; apply Hc in Hv; specialize (Hnn k); lia.
Qed.

Lemma init_hist_ok e (last : string -> Z) ids0 :
  (forall k, last k = match lookup k ids0 with Some z => z | None => 0 end) ->
  (forall k, 0 <= last k) ->
  hist_ok_on last (init_hist e ids0).
Proof. intros Hl Hnn. unfold init_hist. destruct (hist_tables e); [apply hist_ok_on_empty|apply rh_init_ok; assumption]. Qed.

Lemma init_V e dr : V (init_st e dr).
Proof.
  split; [intros c n v []|split; [intros f n v [<-|[]] []|]].
  apply init_hist_ok; intros k; unfold last_id; cbn; [reflexivity|lia].
Qed.

Theorem no_dangling_fresh r k s :
  run_fresh r k = Ok s ->
  forall row n T i, In row (out s) -> In (n, ORef T i) (snd row) -> hidden T = false ->
    exists row', In row' (out s) /\ fst row' = T /\ orow_id row' = [i].
Proof.
  unfold run_fresh. intros H row n T i Hr Hin HT.
  destruct (no_dangling_run _ _ _ _ _ _ (init_start_ok _ _) (init_Bd _ _) (init_V _ _) H row n T i Hr Hin HT) as [Hold|Hnew];
    [|exact Hnew].
  unfold last_id in Hold. cbn in Hold. lia.
Qed.

Lemma saved_fields_incl fs : forall fs', saved_fields fs = Ok fs' -> incl fs' fs.
Proof.
  induction fs as [|[n v] r IH]; intros fs' H; cbn [saved_fields] in H.
  - injection H as <-. apply incl_refl.
  - dbind H as rest. specialize (IH _ eq_refl).
    destruct v; try discriminate; injection H as <-;
      try (apply incl_cons; [left; reflexivity|]); apply incl_tl; exact IH.
Qed.

Lemma clean_handles_keys hs : forall h h1, clean_handles h hs = Ok h1 ->
  forall c', In c' h1 -> exists c, In c h /\ c_table c' = c_table c /\ c_id c' = c_id c /\
                                   incl (c_fields c') (c_fields c).
Proof.
  induction hs as [|x r IH]; intros h h1 H c' Hin; cbn [clean_handles] in H.
  - injection H as <-. exists c'. splits; auto. apply incl_refl.
  - destruct (nth_error h x) as [c|] eqn:Hc; [|discriminate].
    dbind H as fs. destruct (IH _ _ H c' Hin) as (c1 & Hc1 & Ht & Hi & Hf).
    apply In_set_nth in Hc1. destruct Hc1 as [->|Hc1]; [|exists c1; auto].
    exists c. split; [exact (nth_error_In _ _ Hc)|]. splits; [exact Ht|exact Hi|].
    eapply incl_tran; [exact Hf|]. exact (saved_fields_incl _ _ E).
Qed.

Lemma load_Bd {e s c s0} : Bd s -> save s = Ok c -> load e c = Ok s0 -> Bd s0.
Proof.
  intros (B1 & B2 & B3) H Hl. destruct (load_spec Hl) as [h ->].
  unfold save in H. dbind H as h1. injection H as <-.
  split; [|split; [|exact B3]].
  - intros c' Hc'. destruct (clean_handles_keys _ _ _ E _ Hc') as (c0 & Hc0 & Ht & Hi & _).
    unfold last_id. cbn [ids k_ids]. rewrite Ht, Hi. exact (B1 c0 Hc0).
  - intros n sl i Hin Ha. destruct (fresh_slots_unallocated i Hin Ha).
Qed.

Lemma fold_save_rows_ok last (rows : list (string * option string * Z)) : forall h,
  hist_ok_on last h ->
  (forall r, In r rows -> 1 <= snd r <= last (fst (fst r))) ->
  hist_ok_on last (fold_left (fun h r => save_row h (fst (fst r)) (snd (fst r)) (snd r)) rows h).
Proof.
  induction rows as [|r rest IH]; intros h Hh Hr; cbn [fold_left]; [exact Hh|].
  apply IH; [apply save_row_ok; [exact Hh|apply Hr; left; reflexivity]|].
  intros r' Hin. apply Hr. right. exact Hin.
Qed.

Lemma resave_ok e c h0 h (last : string -> Z) :
  resave e c h0 = Ok h -> hist_ok_on last h0 ->
  (forall cl, In cl (k_heap c) -> 1 <= c_id cl <= last (c_table cl)) ->
  hist_ok_on last h.
Proof.
  unfold resave. intros H Hh Hcells. dbind H as nick_rows. dbind H as table_rows.
  (* every row comes from a cell of the loaded heap *)
  assert (Hn : forall r, In r nick_rows -> 1 <= snd r <= last (fst (fst r))).
  { clear H E0. revert nick_rows E. induction (sort_by_key (k_p_nicks c)) as [|[n x] l IH]; intros rows E.
    - injection E as <-. intros r [].
    - destruct (nth_error (k_heap c) x) as [cl|] eqn:Hc; [|discriminate]. dbind E as rest. injection E as <-.
      intros r [<-|Hin]; [exact (Hcells cl (nth_error_In _ _ Hc))|exact (IH _ eq_refl r Hin)]. }
  assert (Ht : forall r, In r table_rows -> 1 <= snd r <= last (fst (fst r))).
  { clear H E Hn. revert table_rows E0. induction (sort_by_key (k_p_tables c)) as [|[t x] l IH]; intros rows E.
    - injection E as <-. intros r [].
    - destruct (nth_error (k_heap c) x) as [cl|] eqn:Hc; [|discriminate].
      destruct (String.eqb_spec t (c_table cl)) as [->|_]; [|discriminate]. dbind E as rest. injection E as <-.
      intros r [<-|Hin]; [exact (Hcells cl (nth_error_In _ _ Hc))|exact (IH _ eq_refl r Hin)]. }
  set (rows := filter _ (nick_rows ++ filter _ table_rows)) in H.
  injection H as <-.
  assert (Hrows : forall r, In r rows -> 1 <= snd r <= last (fst (fst r))).
  { intros r Hin. apply filter_In, proj1, in_app_or in Hin.
    destruct Hin as [Hin|Hin]; [exact (Hn r Hin)|]. apply filter_In in Hin. exact (Ht r (proj1 Hin)). }
  (* what changes at the end is the local nickname counters, which hist_ok_on does not read *)
  destruct (fold_save_rows_ok last rows h0 Hh Hrows) as (H1 & H2 & H3 & H4 & H5).
  exact (conj H1 (conj H2 (conj H3 (conj H4 H5)))).
Qed.

Lemma load_V e s c s0 : V s -> Bd s -> save s = Ok c -> load e c = Ok s0 -> V s0.
Proof.
  intros (Va & Vb & Hh) HB Hs Hl.
  pose proof (load_Bd HB Hs Hl) as (B1' & _).
  unfold load in Hl. dbind Hl as h. injection Hl as <-.
  unfold save in Hs. dbind Hs as h1. injection Hs as <-.
  cbn [k_ids k_heap k_p_nicks k_p_tables k_deps k_draws heap] in *.
  split; [|split; [intros f n v [<-|[]] []|]].
  - intros c' n v Hc' Hf.
    destruct (clean_handles_keys _ _ _ E0 _ Hc') as (c0 & Hc0 & _ & _ & Hincl).
    exact (Va c0 n v Hc0 (Hincl _ Hf)).
  - (* the loaded state has the counters of the saved one *)
    assert (Hinit : hist_ok_on (last_id s) (init_hist e (ids s))).
    { apply init_hist_ok; [reflexivity|apply HB]. }
    destruct (hist_tables e) eqn:Eh; [injection E as <-; exact Hinit|].
    exact (resave_ok _ _ _ _ (last_id s) E Hinit B1').
Qed.

Theorem no_dangling_continued r k s c s' :
  Bd s -> V s -> save s = Ok c ->
  run_one r k (Some c) = Ok s' ->
  forall row n T i, In row (out s') -> In (n, ORef T i) (snd row) -> hidden T = false ->
    (1 <= i <= last_id s T) \/ exists row', In row' (out s') /\ fst row' = T /\ orow_id row' = [i].
Proof.
  intros HB HVs Hs H row n T i Hr Hin HT. cbn [run_one] in H. dbind H as s0.
  assert (Hnn : forall U, 0 <= match lookup U (k_ids c) with Some z => z | None => 0 end).
  { intros U. rewrite (save_ids Hs). destruct HB as (_ & _ & B3). apply B3. }
  pose proof (no_dangling_run _ _ _ _ _ _ (load_start_ok E Hnn) (load_Bd HB Hs E)
                (load_V _ _ _ _ HVs HB Hs E) H row n T i Hr Hin HT) as R.
  rewrite (resume_after_highest _ _ _ _ _ Hs E) in R. exact R.
Qed.
