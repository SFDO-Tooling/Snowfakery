(* Hull–Dobell for power-of-two moduli, from first principles.
   f x = (a*x + c) mod 2^k with a = 1 (mod 4) and c odd has full period 2^k:
   f^n x = a^n x + c G_n (mod 2^k) with G_n = 1 + a + ... + a^(n-1), so f^d x = x says that 2^k
   divides G_d * ((a-1) x + c), an odd multiple of G_d; and 2^k does not divide G_d for
   0 < d < 2^k.                                                                          *)
From Coq Require Import ZArith List Lia Znumtheory Zpow_facts Bool.
From SFV Require Import Base.
From SFV.P Require Import BaseP.
Import ListNotations. Open Scope Z_scope.

Fixpoint G (a : Z) (n : nat) : Z :=
  match n with O => 0 | S m => 1 + a * G a m end.

Lemma G_add a m n : G a (m + n) = G a m + a ^ (Z.of_nat m) * G a n.
Proof.
  induction m as [|m IH]; cbn [G Nat.add].
  - rewrite Z.pow_0_r. ring.
  - rewrite IH, Nat2Z.inj_succ, Z.pow_succ_r by lia. ring.
Qed.

Lemma G_geom a n : a ^ (Z.of_nat n) - 1 = (a - 1) * G a n.
Proof.
  induction n as [|n IH]; cbn [G].
  - rewrite Z.pow_0_r. ring.
  - rewrite Nat2Z.inj_succ, Z.pow_succ_r by lia.
    replace (a * a ^ Z.of_nat n - 1) with (a * (a ^ Z.of_nat n - 1) + (a - 1)) by ring.
    rewrite IH. ring.
Qed.

Definition lin a c (n : nat) (x : Z) := a ^ (Z.of_nat n) * x + c * G a n.

Lemma lin_sub a c n x : lin a c n x - x = G a n * ((a - 1) * x + c).
Proof.
  unfold lin. replace (a ^ Z.of_nat n) with ((a - 1) * G a n + 1) by (rewrite <- G_geom; ring). ring.
Qed.

Section LCG.
  Variables (a c m : Z).
  Hypothesis Hm : 0 < m.
  Definition f (x : Z) := (x * a + c) mod m.
  Fixpoint iter (n : nat) (x : Z) : Z :=
    match n with O => x | S k => f (iter k x) end.

  Lemma iter_lin n x : 0 <= x < m -> iter n x = lin a c n x mod m.
  Proof.
    intros Hx. induction n as [|n IH]; cbn [iter].
    - unfold lin. cbn [G]. rewrite Z.pow_0_r, Z.mul_1_l, Z.mul_0_r, Z.add_0_r.
      symmetry. apply Z.mod_small. exact Hx.
    - rewrite IH. unfold f, lin. cbn [G]. rewrite Nat2Z.inj_succ, Z.pow_succ_r by apply Nat2Z.is_nonneg.
      rewrite Zplus_mod, Zmult_mod_idemp_l, <- Zplus_mod. f_equal. ring.
  Qed.

  Lemma iter_range n x : 0 <= x < m -> 0 <= iter n x < m.
  Proof.
    intros Hx. destruct n; cbn [iter]; [exact Hx|]. apply Z.mod_pos_bound. exact Hm.
  Qed.

  Lemma iter_succ_r n x : iter (S n) x = iter n (f x).
  Proof. induction n as [|n IH]; cbn [iter] in *; congruence. Qed.

  Fixpoint orbit (n : nat) (x : Z) : list Z :=
    match n with O => [] | S k => x :: orbit k (f x) end.

  Lemma orbit_length n x : length (orbit n x) = n.
  Proof. revert x; induction n; intros; cbn [orbit length]; auto. Qed.

  Lemma orbit_nth n x i : (i < n)%nat -> nth_error (orbit n x) i = Some (iter i x).
  Proof.
    revert x i; induction n as [|n IH]; intros x i Hi; [lia|].
    destruct i as [|i]; cbn [orbit nth_error]; [reflexivity|].
    rewrite IH by lia. rewrite iter_succ_r. reflexivity.
  Qed.

  Lemma orbit_In n x y : In y (orbit n x) -> exists i, (i < n)%nat /\ y = iter i x.
  Proof.
    intros H. apply In_nth_error in H. destruct H as [i Hi].
    assert (i < n)%nat.
    { rewrite <- (orbit_length n x). apply nth_error_Some. congruence. }
    exists i. split; [assumption|]. rewrite orbit_nth in Hi by assumption. congruence.
  Qed.

  Lemma orbit_in_range n x y : 0 <= x < m -> In y (orbit n x) -> 0 <= y < m.
  Proof. intros Hx Hy. apply orbit_In in Hy. destruct Hy as [i [_ ->]]. apply iter_range, Hx. Qed.
End LCG.

Lemma pow_mod4 a n : a mod 4 = 1 -> (a ^ Z.of_nat n) mod 4 = 1.
Proof.
  intros Ha. induction n as [|n IH].
  - reflexivity.
  - rewrite Nat2Z.inj_succ, Z.pow_succ_r by lia. rewrite Zmult_mod, Ha, IH. reflexivity.
Qed.

Lemma odd_of_mod4 a : a mod 4 = 1 -> Z.odd a = true.
Proof.
  intros Ha. apply Z.odd_spec. exists (2 * (a / 4)).
  pose proof (Z.div_mod a 4). lia.
Qed.

Lemma G_parity a n : Z.odd a = true -> Z.odd (G a n) = Nat.odd n.
Proof.
  intros Ha. induction n as [|n IH]; cbn [G].
  - reflexivity.
  - rewrite Z.odd_add, Z.odd_mul, Ha, IH, Nat.odd_succ, <- Nat.negb_odd.
    destruct (Nat.odd n); reflexivity.
Qed.

Lemma odd_cancel k p q : Z.odd q = true -> (2 ^ Z.of_nat k | p * q) -> (2 ^ Z.of_nat k | p).
Proof.
  intros Hq H. rewrite Z.mul_comm in H. apply Gauss in H; [exact H|].
  apply rel_prime_sym, rel_prime_Zpower_r; [lia|].
  apply rel_prime_sym, prime_rel_prime; [apply prime_2|].
  intros [t Ht]. rewrite Ht, Z.mul_comm, Z.odd_mul in Hq. discriminate.
Qed.

Lemma G_not_div a : a mod 4 = 1 ->
  forall (k : nat) (d : nat), (0 < d)%nat -> Z.of_nat d < 2 ^ Z.of_nat k ->
  ~ (2 ^ Z.of_nat k | G a d).
Proof.
  intros Ha. pose proof (odd_of_mod4 a Ha) as Hodd.
  induction k as [|k IH]; intros d Hd Hlt Hdiv.
  - change (2 ^ Z.of_nat 0) with 1 in Hlt. lia.
  - rewrite Nat2Z.inj_succ, Z.pow_succ_r in Hlt, Hdiv by lia.
    (* an odd d gives an odd sum; an even one halves, since G (d'+d') = G d' * (1 + a^d')
       and 1 + a^d' is twice an odd number *)
    destruct (Nat.odd d) eqn:Hpar.
    + rewrite <- (G_parity a d Hodd) in Hpar. apply Z.odd_spec in Hpar.
      destruct Hpar as [s Hs], Hdiv as [t Ht]. lia.
    + assert (Hev : Nat.even d = true) by (rewrite <- Nat.negb_odd, Hpar; reflexivity).
      apply Nat.even_spec in Hev. destruct Hev as [d' Hd'].
      replace d with (d' + d')%nat in * by lia. clear Hd'.
      pose proof (pow_mod4 a d' Ha) as H4. pose proof (Z.div_mod (a ^ Z.of_nat d') 4) as HA.
      rewrite G_add in Hdiv.
      replace (G a d' + a ^ Z.of_nat d' * G a d')
        with (2 * (G a d' * (1 + 2 * (a ^ Z.of_nat d' / 4)))) in Hdiv by lia.
      apply Z.mul_divide_cancel_l in Hdiv; [|lia].
      apply odd_cancel in Hdiv; [|apply Z.odd_add_mul_2].
      apply (IH d'); [lia|lia|exact Hdiv].
Qed.

Section FullPeriod.
  Variables (a c : Z) (k : nat).
  Hypothesis Ha : a mod 4 = 1.
  Hypothesis Hc : Z.odd c = true.
  Let m := 2 ^ Z.of_nat k.

  Lemma m_pos : 0 < m.
  Proof. apply Z.pow_pos_nonneg; lia. Qed.

  Lemma no_return x d :
    0 <= x < m -> (0 < d)%nat -> Z.of_nat d < m -> iter a c m d x <> x.
  Proof.
    intros Hx Hd Hlt Heq. rewrite iter_lin in Heq by assumption.
    apply Zmod_divide_minus in Heq; [|apply m_pos]. rewrite lin_sub in Heq.
    apply odd_cancel in Heq; [exact (G_not_div a Ha k d Hd Hlt Heq)|].
    apply Z.odd_spec. destruct (proj1 (Z.odd_spec c) Hc) as [t Ht].
    exists (2 * (a / 4) * x + t). pose proof (Z.div_mod a 4). lia.
  Qed.

  Theorem orbit_NoDup n : forall x,
    0 <= x < m -> Z.of_nat n <= m -> NoDup (orbit a c m n x).
  Proof.
    induction n as [|n IH]; intros x Hx Hn; cbn [orbit]; constructor.
    - intros Hin. apply orbit_In in Hin. destruct Hin as (i & Hi & Heq).
      rewrite <- iter_succ_r in Heq. symmetry in Heq. revert Heq. apply no_return; [exact Hx|lia|lia].
    - apply IH; [|lia]. apply Z.mod_pos_bound, m_pos.
  Qed.

  Theorem full_period x :
    0 <= x < m ->
    NoDup (orbit a c m (Z.to_nat m) x) /\ forall y, 0 <= y < m -> In y (orbit a c m (Z.to_nat m) x).
  Proof.
    intros Hx. pose proof m_pos as Hm.
    assert (Hnd : NoDup (orbit a c m (Z.to_nat m) x)) by (apply orbit_NoDup; [exact Hx|lia]).
    split; [exact Hnd|]. intros y Hy.
    (* 2^k distinct values in [0, 2^k) are all of them *)
    apply (NoDup_length_incl Hnd (l' := Zseq 0 (Z.to_nat m))).
    - rewrite Zseq_length, orbit_length. lia.
    - intros z Hz. apply Zseq_In. apply (orbit_in_range _ _ _ Hm _ _ _ Hx) in Hz. lia.
    - apply Zseq_In. lia.
  Qed.
End FullPeriod.
