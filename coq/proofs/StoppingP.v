(* StoppingP.v — proofs about theories/Stopping.v (property C07).

   A run with a row-count target is the loop [tloop] over three integers: reference id of the
   progress check, last used id, target id ([run_is_tloop]).  Two facts about [tloop] carry the
   theorems: [tloop_app], the state after a prefix of iterations none of which ends the run, and
   [tloop_inv], what each outcome says about the row counts. *)
From Coq Require Import Lia ZifyBool.
From SFV Require Import Base Stopping.
From SFV.P Require Import BaseP.
Import ListNotations. Open Scope Z_scope.

Lemma zsum_nil : zsum [] = 0.
Proof. reflexivity. Qed.

Lemma zsum_cons r l : zsum (r :: l) = r + zsum l.
Proof. reflexivity. Qed.

Lemma zsum_app l1 l2 : zsum (l1 ++ l2) = zsum l1 + zsum l2.
Proof.
  induction l1 as [|x l1 IH]; cbn [List.app].
  - rewrite zsum_nil. lia.
  - rewrite !zsum_cons, IH. lia.
Qed.

Lemma zsum_nonneg l : Forall (fun r => 0 <= r) l -> 0 <= zsum l.
Proof.
  induction 1 as [|x l Hx _ IH].
  - rewrite zsum_nil. lia.
  - rewrite zsum_cons. lia.
Qed.

Definition below (L tid : Z) (rs : list Z) (n : nat) : Prop :=
  forall i, (1 <= i <= n)%nat -> L + zsum (firstn i rs) < tid.

Lemma below_0 L tid rs : below L tid rs 0.
Proof. intros i Hi. lia. Qed.

Lemma below_cons L tid r rs n :
  below L tid (r :: rs) (S n) <-> L + r < tid /\ below (L + r) tid rs n.
Proof.
  unfold below. split.
  - intros H. split.
    + specialize (H 1%nat). cbn [firstn] in H. rewrite zsum_cons, zsum_nil in H. lia.
    + intros i Hi. specialize (H (S i)). rewrite firstn_cons, zsum_cons in H. lia.
  - intros [Hr H] [|i] Hi; [lia|]. rewrite firstn_cons, zsum_cons.
    destruct i as [|i].
    + cbn [firstn]. rewrite zsum_nil. lia.
    + specialize (H (S i)). lia.
Qed.

(* s = reference id of the progress check, L = last used id, tid = target id.  After the first
   iteration s = L: an iteration makes progress iff it creates a row. *)
Fixpoint tloop (rs : list Z) (j : nat) (s L tid : Z) : outcome :=
  match rs with
  | [] => Exhausted j
  | r :: rest =>
    if L + r =? s then Failed (S j) runtime_error
    else if tid <=? L + r then Stopped (S j) (L + r)
    else tloop rest (S j) (L + r) (L + r) tid
  end.

Lemma tloop_app pre rest : forall j L tid,
  Forall (fun r => r <> 0) pre -> below L tid pre (length pre) ->
  tloop (pre ++ rest) j L L tid
  = tloop rest (j + length pre) (L + zsum pre) (L + zsum pre) tid.
Proof.
  induction pre as [|r pre IH]; intros j L tid Hp Hb; cbn [List.app length].
  - rewrite zsum_nil, Z.add_0_r, Nat.add_0_r. reflexivity.
  - apply Forall_cons_iff in Hp. apply below_cons in Hb.
    destruct Hp as [Hr Hp], Hb as [Hlt Hb]. cbn [tloop].
    destruct (L + r =? L) eqn:E; [lia|]. destruct (tid <=? L + r) eqn:Et; [lia|].
    rewrite IH by assumption. rewrite zsum_cons, Z.add_assoc, Nat.add_succ_comm. reflexivity.
Qed.

(* Conversely: n is the number of iterations before the one that ended the run (all of them if
   none did).  Each of the n created a row, so raised the id unless row counts can be negative;
   that bounds n by the distance to the target. *)
Lemma tloop_inv rs : forall j L tid, exists n,
  below L tid rs n /\
  (Forall (fun r => 0 <= r) rs -> Z.of_nat n < Z.max 1 (tid - L)) /\
  match tloop rs j L L tid with
  | Stopped j' L' => j' = (j + S n)%nat /\ (n < length rs)%nat /\
                     L' = L + zsum (firstn (S n) rs) /\ tid <= L'
  | Failed j' e => j' = (j + S n)%nat /\ e = runtime_error /\ nth_error rs n = Some 0
  | Exhausted j' => j' = (j + n)%nat /\ n = length rs
  end.
Proof.
  induction rs as [|r rest IH]; intros j L tid; cbn [tloop].
  - exists 0%nat. cbn [length]. repeat split; [apply below_0 | lia | lia].
  - destruct (L + r =? L) eqn:E.
    { exists 0%nat. replace r with 0 by lia. repeat split; [apply below_0 | lia | lia]. }
    destruct (tid <=? L + r) eqn:Et.
    { exists 0%nat. cbn [firstn length]. rewrite zsum_cons, zsum_nil.
      repeat split; [apply below_0 | lia..]. }
    destruct (IH (S j) (L + r) tid) as (n & Hb & Hn & Ho). exists (S n).
    split; [apply below_cons; split; [lia | assumption]|]. split.
    + intros Hp. apply Forall_cons_iff in Hp. destruct Hp as [Hr Hp]. specialize (Hn Hp). lia.
    + rewrite firstn_cons, zsum_cons. cbn [length nth_error].
      destruct (tloop rest (S j) (L + r) (L + r) tid) as [j' L'|j' e|j'].
      * destruct Ho as (-> & Hlt & -> & Ht'). repeat split; lia.
      * destruct Ho as (-> & -> & H0). repeat split; [lia | exact H0].
      * destruct Ho as (-> & ->). split; lia.
Qed.

Lemma tloop_strict_term rs j L tid :
  Forall (fun r => 0 <= r) rs ->
  Z.of_nat (length rs) >= Z.max 1 (tid - L) ->
  forall n, tloop rs j L L tid <> Exhausted n.
Proof.
  intros Hp Hlen n' E.
  destruct (tloop_inv rs j L tid) as (n & _ & Hn & Ho). rewrite E in Ho.
  destruct Ho as [_ ->]. specialize (Hn Hp). lia.
Qed.

Lemma tloop_term : forall rs j s L tid,
  s <= L -> Forall (fun r => 0 <= r) rs ->
  Z.of_nat (length rs) >= Z.max 1 (tid - L) + 1 ->
  forall n, tloop rs j s L tid <> Exhausted n.
Proof.
  intros rs j s L tid Hs Hp Hlen n.
  destruct rs as [|r rest]; [cbn [length] in Hlen; lia|].
  cbn [tloop]. apply Forall_cons_iff in Hp. destruct Hp as [Hr Hp].
  destruct (L + r =? s); [discriminate|].
  destruct (tid <=? L + r); [discriminate|].
  apply tloop_strict_term; [assumption|]. cbn [length] in Hlen. lia.
Qed.

Lemma tloop_shift rs : forall j s L tid d,
  tloop rs j (s + d) (L + d) (tid + d) = shift_outcome d (tloop rs j s L tid).
Proof.
  induction rs as [|r rest IH]; intros j s L tid d; cbn [tloop]; [reflexivity|].
  replace (L + d + r) with (L + r + d) by lia.
  replace (L + r + d =? s + d) with (L + r =? s) by lia.
  replace (tid + d <=? L + r + d) with (tid <=? L + r) by lia.
  rewrite IH. destruct (L + r =? s), (tid <=? L + r); reflexivity.
Qed.

Lemma proper_eqb T : proper_table T -> String.eqb T COUNT_REPS = false.
Proof. intros H. apply String.eqb_neq, H. Qed.

(* the reference id that ensure_progress compares with *)
Definition eff_s (a : app) (m : idm) : Z :=
  if a_rep_count a =? 0 then start_of m - 1 else a_starting_id a.

Lemma ensure_progress_target a m : proper_table (c_table (a_crit a)) ->
  ensure_progress a m =
  if m_last m =? eff_s a m then Err runtime_error
  else Ok (mkApp (a_crit a) (m_last m) (a_rep_count a)).
Proof.
  intros Ha. unfold ensure_progress, stopping_tablename. rewrite (proper_eqb _ Ha). reflexivity.
Qed.

Lemma check_finished_target a m : proper_table (c_table (a_crit a)) ->
  check_finished a m =
  (mkApp (a_crit a) (a_starting_id a) (a_rep_count a + 1), target_id a m <=? m_last m).
Proof. intros Ha. unfold check_finished. rewrite (proper_eqb _ Ha). reflexivity. Qed.

Lemma loop_is_tloop rs : forall j a m,
  proper_table (c_table (a_crit a)) -> 0 <= a_rep_count a ->
  loop rs j a m = tloop rs j (eff_s a m) (m_last m) (target_id a m).
Proof.
  induction rs as [|r rest IH]; intros j a m Ha Hc; [reflexivity|].
  cbn [loop tloop]. rewrite ensure_progress_target by assumption.
  change (m_last (generate_ids m r) =? eff_s a (generate_ids m r))
    with (m_last m + r =? eff_s a m).
  destruct (m_last m + r =? eff_s a m); [reflexivity|].
  rewrite check_finished_target by assumption.
  change (target_id _ (generate_ids m r) <=? m_last (generate_ids m r))
    with (target_id a m <=? m_last m + r).
  destruct (target_id a m <=? m_last m + r); [reflexivity|].
  rewrite IH by (cbn [a_crit a_rep_count]; assumption || lia).
  (* rep_count is now positive: the reference id is the id just stored *)
  unfold eff_s at 1. cbn [a_rep_count a_starting_id].
  destruct (a_rep_count a + 1 =? 0) eqn:E; [lia | reflexivity].
Qed.

Lemma run_eq tables sc cont rs : run tables sc cont rs = run_with tables (new_app sc) cont rs.
Proof. reflexivity. Qed.

Lemma run_with_is_tloop a tables cont rs :
  proper_table (c_table (a_crit a)) -> 0 <= a_rep_count a ->
  run_with tables a cont rs =
  if existsb (String.eqb (c_table (a_crit a))) tables
  then tloop rs 0 (eff_s a (init_idm cont)) (base cont) (target_id a (init_idm cont))
  else Failed 0 (DGE "DataGenNameError").
Proof.
  intros Ha Hc. unfold run_with, interp_init, stopping_tablename. rewrite (proper_eqb _ Ha).
  destruct (existsb _ tables); cbn [negb]; [|reflexivity].
  rewrite loop_is_tloop by assumption. destruct cont; reflexivity.
Qed.

Lemma start_of_init cont : start_of (init_idm cont) = base cont + 1.
Proof. destruct cont; reflexivity. Qed.

Lemma run_is_tloop T N tables cont rs :
  proper_table T -> In T tables ->
  run tables (Some (mkCrit T N)) cont rs
  = tloop rs 0 (base cont) (base cont) (base cont + N).
Proof.
  intros HT Hin. rewrite run_eq, run_with_is_tloop by (assumption || reflexivity).
  cbn [new_app a_crit c_table]. rewrite (proj2 (existsb_eqb_In _ String.eqb_eq T tables) Hin).
  unfold eff_s, target_id. rewrite start_of_init. cbn [new_app a_rep_count a_crit c_count Z.eqb].
  f_equal; lia.
Qed.

Lemma run_unknown_table T N tables cont rs :
  proper_table T -> ~ In T tables ->
  run tables (Some (mkCrit T N)) cont rs = Failed 0 (DGE "DataGenNameError").
Proof.
  intros HT Hin.
  rewrite run_eq, run_with_is_tloop by (assumption || reflexivity). cbn [new_app a_crit c_table].
  destruct (existsb _ tables) eqn:E; [apply (existsb_eqb_In _ String.eqb_eq) in E; contradiction | reflexivity].
Qed.

Lemma run_target_app T N tables cont pre rest :
  proper_table T -> In T tables ->
  Forall (fun r => 1 <= r) pre ->
  (forall i, (i <= length pre)%nat -> zsum (firstn i pre) < N) ->
  run tables (Some (mkCrit T N)) cont (pre ++ rest)
  = tloop rest (length pre) (base cont + zsum pre) (base cont + zsum pre) (base cont + N).
Proof.
  intros HT Hin Hp Hb. rewrite run_is_tloop by assumption. rewrite tloop_app; [reflexivity| |].
  - revert Hp. apply Forall_impl. intros r Hr. lia.
  - intros i Hi. specialize (Hb i). lia.
Qed.

Theorem target_stops_at_first_boundary : forall T tables N cont pre x rest,
  proper_table T -> In T tables -> 1 <= N ->
  Forall (fun r => 1 <= r) pre ->
  (forall i, (i <= length pre)%nat -> zsum (firstn i pre) < N) ->
  N <= zsum pre + x ->
  run tables (Some (mkCrit T N)) cont (pre ++ x :: rest)
  = Stopped (length pre + 1) (base cont + zsum pre + x).
Proof.
  intros T tables N cont pre x rest HT Hin HN Hp Hb Hx.
  rewrite run_target_app by assumption. cbn [tloop].
  specialize (Hb (length pre)). rewrite firstn_all in Hb.
  destruct (_ =? _) eqn:E; [lia|]. destruct (_ <=? _) eqn:E'; [|lia].
  f_equal. lia.
Qed.

(* every no-progress iteration, fresh or continued, first or later *)
Theorem no_progress : forall T tables N cont pre rest,
  proper_table T -> In T tables -> 1 <= N ->
  Forall (fun r => 1 <= r) pre ->
  (forall i, (i <= length pre)%nat -> zsum (firstn i pre) < N) ->
  run tables (Some (mkCrit T N)) cont (pre ++ 0 :: rest)
  = Failed (length pre + 1) runtime_error.
Proof.
  intros T tables N cont pre rest HT Hin HN Hp Hb.
  rewrite run_target_app by assumption. cbn [tloop].
  rewrite Z.add_0_r, Z.eqb_refl. f_equal. lia.
Qed.

Theorem target_stop_is_first_boundary : forall T tables N cont rs j last,
  proper_table T -> In T tables ->
  run tables (Some (mkCrit T N)) cont rs = Stopped j last ->
  (1 <= j <= length rs)%nat /\
  last = base cont + zsum (firstn j rs) /\
  N <= zsum (firstn j rs) /\
  forall i, (1 <= i < j)%nat -> zsum (firstn i rs) < N.
Proof.
  intros T tables N cont rs j last HT Hin H.
  rewrite run_is_tloop in H by assumption.
  destruct (tloop_inv rs 0 (base cont) (base cont + N)) as (n & Hb & _ & Ho).
  rewrite H in Ho. cbn [Nat.add] in Ho. destruct Ho as (-> & Hn & -> & Ht).
  repeat split; try lia. intros i Hi. specialize (Hb i). lia.
Qed.

Theorem target_error_only_without_progress : forall T tables N cont rs j e,
  proper_table T -> In T tables ->
  run tables (Some (mkCrit T N)) cont rs = Failed j e ->
  exists n, j = S n /\ e = runtime_error /\ nth_error rs n = Some 0 /\
            forall i, (1 <= i <= n)%nat -> zsum (firstn i rs) < N.
Proof.
  intros T tables N cont rs j e HT Hin H.
  rewrite run_is_tloop in H by assumption.
  destruct (tloop_inv rs 0 (base cont) (base cont + N)) as (n & Hb & _ & Ho).
  rewrite H in Ho. cbn [Nat.add] in Ho. destruct Ho as (-> & -> & Hn).
  exists n. repeat split; try assumption. intros i Hi. specialize (Hb i). lia.
Qed.

(* With a row in every iteration only the first outcome of tloop_inv remains. *)
Theorem target_progress_bound : forall T tables N cont rs,
  proper_table T -> In T tables -> 1 <= N ->
  Forall (fun r => 1 <= r) rs -> Z.of_nat (length rs) >= N ->
  exists j, (1 <= j)%nat /\ Z.of_nat j <= N /\
    run tables (Some (mkCrit T N)) cont rs = Stopped j (base cont + zsum (firstn j rs)) /\
    N <= zsum (firstn j rs) /\
    forall i, (1 <= i < j)%nat -> zsum (firstn i rs) < N.
Proof.
  intros T tables N cont rs HT Hin HN Hp Hlen.
  destruct (tloop_inv rs 0 (base cont) (base cont + N)) as (n & Hb & Hn & Ho).
  rewrite <- (run_is_tloop T N tables) in Ho by assumption.
  assert (Z.of_nat n < N).
  { enough (Z.of_nat n < Z.max 1 (base cont + N - base cont)) by lia.
    apply Hn. revert Hp. apply Forall_impl. intros r Hr. lia. }
  destruct (run tables (Some (mkCrit T N)) cont rs) as [j last|j e|j].
  - destruct Ho as (-> & _ & -> & Ht). exists (S n).
    repeat split; try lia. intros i Hi. specialize (Hb i). lia.
  - destruct Ho as (_ & _ & H0). apply nth_error_In in H0.
    rewrite Forall_forall in Hp. apply Hp in H0. lia.
  - lia.
Qed.

Lemma prefix_length r n : length (prefix r n) = n.
Proof. unfold prefix. rewrite map_length, seq_length. reflexivity. Qed.

Lemma prefix_Forall (P : Z -> Prop) r n : (forall j, P (r j)) -> Forall P (prefix r n).
Proof.
  intros H. unfold prefix. apply Forall_forall. intros x Hx.
  apply in_map_iff in Hx. destruct Hx as (j & <- & _). apply H.
Qed.

Lemma firstn_prefix r j n : (j <= n)%nat -> firstn j (prefix r n) = prefix r j.
Proof.
  intros H. unfold prefix. rewrite firstn_map. f_equal.
  replace n with (j + (n - j))%nat by lia. rewrite seq_app.
  rewrite firstn_app, seq_length, Nat.sub_diag. cbn [firstn]. rewrite app_nil_r.
  apply firstn_all2. rewrite seq_length. lia.
Qed.

Theorem target_first_boundary_stream : forall T tables N cont (r : nat -> Z) fuel,
  proper_table T -> In T tables -> 1 <= N ->
  (forall j, 1 <= r j) -> Z.of_nat fuel >= N ->
  exists j, (1 <= j)%nat /\ Z.of_nat j <= N /\
    run tables (Some (mkCrit T N)) cont (prefix r fuel)
    = Stopped j (base cont + zsum (prefix r j)) /\
    N <= zsum (prefix r j) /\
    forall i, (1 <= i < j)%nat -> zsum (prefix r i) < N.
Proof.
  intros T tables N cont r fuel HT Hin HN Hr Hf.
  destruct (target_progress_bound T tables N cont (prefix r fuel) HT Hin HN)
    as (j & H1 & H2 & H3 & H4 & H5).
  - apply prefix_Forall. exact Hr.
  - rewrite prefix_length. exact Hf.
  - exists j. rewrite firstn_prefix in * by lia. repeat split; try assumption.
    intros i Hi. specialize (H5 i Hi). rewrite firstn_prefix in H5 by lia. exact H5.
Qed.

Lemma ensure_progress_reps a m : c_table (a_crit a) = COUNT_REPS -> ensure_progress a m = Ok a.
Proof. intros Ha. unfold ensure_progress, stopping_tablename. rewrite Ha. reflexivity. Qed.

Lemma check_finished_reps a m : c_table (a_crit a) = COUNT_REPS ->
  check_finished a m =
  (mkApp (a_crit a) (a_starting_id a) (a_rep_count a + 1),
   c_count (a_crit a) <=? a_rep_count a + 1).
Proof. intros Ha. unfold check_finished. rewrite Ha. reflexivity. Qed.

(* max 1: the test comes after the iteration, so one iteration runs even when rep_count has
   already reached the count (a count below 1, or an application object that was used before). *)
Lemma loop_reps pre : forall x rest j a m,
  c_table (a_crit a) = COUNT_REPS ->
  Z.of_nat (length pre) = Z.max 1 (c_count (a_crit a) - a_rep_count a) - 1 ->
  loop (pre ++ x :: rest) j a m = Stopped (j + length pre + 1) (m_last m + zsum pre + x).
Proof.
  induction pre as [|r pre IH]; intros x rest j a m Ha Hlen;
    cbn [List.app loop length] in *;
    rewrite ensure_progress_reps, check_finished_reps by assumption;
    cbn [generate_ids m_last].
  - destruct (_ <=? _) eqn:E; [|lia].
    rewrite zsum_nil. f_equal; lia.
  - destruct (_ <=? _) eqn:E; [lia|].
    rewrite IH by (cbn [a_crit a_rep_count]; assumption || lia).
    rewrite zsum_cons. cbn [generate_ids m_last]. f_equal; lia.
Qed.

Lemma run_reps tables k cont pre x rest :
  Z.of_nat (length pre) = Z.max 1 k - 1 ->
  run tables (Some (mkCrit COUNT_REPS k)) cont (pre ++ x :: rest)
  = Stopped (length pre + 1) (base cont + zsum pre + x).
Proof.
  intros Hlen. unfold run. cbn [interp_init].
  rewrite loop_reps by (cbn; reflexivity || lia). destruct cont; reflexivity.
Qed.

Lemma final_app_stopped rs : forall j a m n last,
  proper_table (c_table (a_crit a)) -> 0 <= a_rep_count a ->
  loop rs j a m = Stopped n last ->
  a_crit (final_app rs a m) = a_crit a /\
  a_starting_id (final_app rs a m) = last /\
  1 <= a_rep_count (final_app rs a m).
Proof.
  induction rs as [|r rest IH]; intros j a m n last Ha Hc H; [discriminate|].
  cbn [loop final_app] in *. rewrite ensure_progress_target in * by assumption.
  destruct (_ =? _); [discriminate|].
  rewrite check_finished_target in * by assumption.
  destruct (_ <=? _).
  - injection H as _ <-. cbn [a_crit a_starting_id a_rep_count]. repeat split. lia.
  - apply IH in H; [exact H | assumption | cbn [a_rep_count]; lia].
Qed.

(* An application object that already drove a run ending at id [last0] decides the continuation
   of that run exactly like a new object with the same criterion. *)
Theorem reused_application_same_as_new : forall T tables N last0 a rs,
  proper_table T -> a_crit a = mkCrit T N -> a_starting_id a = last0 -> 1 <= a_rep_count a ->
  run_with tables a (Some last0) rs = run tables (Some (mkCrit T N)) (Some last0) rs.
Proof.
  intros T tables N last0 a rs HT Hcrit Hs Hc.
  rewrite run_eq, (run_with_is_tloop (new_app _)) by (assumption || reflexivity).
  rewrite run_with_is_tloop by (rewrite ?Hcrit; assumption || lia).
  unfold eff_s, target_id. rewrite Hcrit, Hs. cbn [new_app a_crit a_rep_count Z.eqb].
  destruct (a_rep_count a =? 0) eqn:E; [lia|].
  rewrite start_of_init. cbn [base]. destruct (existsb _ tables); [f_equal; lia | reflexivity].
Qed.
