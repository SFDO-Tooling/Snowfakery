(* A scalar comes back with the tag it was written with, whatever the resolver; the derivative
   matcher decides [lang]; str(n) is read back as n and is recognised as an int by the eight
   patterns, for integers of any size. *)
From Coq Require Import ZArith List Bool String Ascii Lia.
From Coq Require Import DecimalString DecimalZ DecimalPos DecimalFacts.
From SFV Require Import Base YamlScalar.
Import ListNotations. Open Scope string_scope.

Lemma ytag_eqb_refl a : ytag_eqb a a = true.
Proof. destruct a; cbn [ytag_eqb]; try reflexivity. apply String.eqb_refl. Qed.

Lemma ytag_eqb_eq a b : ytag_eqb a b = true <-> a = b.
Proof.
  split; [|intros ->; apply ytag_eqb_refl].
  destruct a, b; try discriminate 1; try reflexivity.
  intro H. apply String.eqb_eq in H. now subst.
Qed.

Section ScalarP.
  Variable resolve : string -> ytag.
  Variable default_tag : ytag.

  (* whatever style is chosen, as long as plain is chosen only under implicit[0]: the tag is left
     out only where the composer's rule puts the same tag back *)
  Lemma compose_emit_as plain n p :
    emit_scalar_as resolve default_tag plain n = Some p ->
    compose_scalar resolve default_tag p = n.
  Proof.
    destruct n as [tag text].
    unfold emit_scalar_as, implicit_of, compose_scalar, composed_tag, written_tag.
    cbn [fst snd sn_tag sn_text]. destruct plain; cbn [andb negb].
    - destruct (ytag_eqb tag (resolve text)) eqn:E; [|discriminate].
      intros [= <-]. cbn [ps_tag ps_plain ps_text]. apply ytag_eqb_eq in E. now rewrite <- E.
    - intros [= <-]. cbn [ps_tag ps_plain ps_text].
      destruct (ytag_eqb tag default_tag) eqn:E; [|reflexivity].
      apply ytag_eqb_eq in E. now rewrite <- E.
  Qed.

  Variable analyze : string -> analysis.

  Lemma style_plain_implicit sk flow i an :
    is_plain (choose_scalar_style sk flow i an) = true -> i = true.
  Proof.
    unfold choose_scalar_style. destruct i; [reflexivity|]. cbn [andb].
    now destruct (an_allow_single_quoted an && negb (sk && an_multiline an)).
  Qed.

  (* the emitter's own choice is one of the allowed ones *)
  Lemma emit_is_emit_as sk flow n :
    emit_scalar_as resolve default_tag (ps_plain (emit_scalar resolve default_tag analyze sk flow n)) n
    = Some (emit_scalar resolve default_tag analyze sk flow n).
  Proof.
    unfold emit_scalar, emit_scalar_as. cbn [ps_plain].
    destruct (is_plain _) eqn:E; [|reflexivity].
    apply style_plain_implicit in E. now rewrite E.
  Qed.

  Theorem compose_emit sk flow n :
    compose_scalar resolve default_tag (emit_scalar resolve default_tag analyze sk flow n) = n.
  Proof. eapply compose_emit_as. apply emit_is_emit_as. Qed.

  Lemma emit_text sk flow n : ps_text (emit_scalar resolve default_tag analyze sk flow n) = sn_text n.
  Proof. reflexivity. Qed.
End ScalarP.

Definition digit_char (c : ascii) : bool := digit c.

Fixpoint all_chars (p : ascii -> bool) (s : string) : bool :=
  match s with
  | EmptyString => true
  | String c s' => p c && all_chars p s'
  end.

Lemma uint_text_digits d : all_chars digit_char (NilEmpty.string_of_uint d) = true.
Proof. induction d; cbn [NilEmpty.string_of_uint all_chars]; [reflexivity|exact IHd..]. Qed.

Lemma digit_neq c x : digit_char c = true -> digit_char x = false -> Ascii.eqb c x = false.
Proof. intros Hc Hx. apply Ascii.eqb_neq. congruence. Qed.

Lemma remove_char_digits x s :
  digit_char x = false -> all_chars digit_char s = true -> remove_char x s = s.
Proof.
  intros Hx. induction s as [|c s IH]; cbn [all_chars remove_char]; [reflexivity|].
  intro H. apply andb_prop in H as [Hc Hs]. now rewrite (digit_neq c x), IH.
Qed.

Lemma has_char_digits x s :
  digit_char x = false -> all_chars digit_char s = true -> has_char x s = false.
Proof.
  intros Hx. induction s as [|c s IH]; cbn [all_chars has_char]; [reflexivity|].
  intro H. apply andb_prop in H as [Hc Hs]. now rewrite (digit_neq c x), IH.
Qed.

(* Pos.to_uint has no leading zero: it is its own normal form *)
Lemma to_uint_head p d : Pos.to_uint p <> Decimal.D0 d.
Proof.
  intro H. pose proof (DecimalPos.Unsigned.to_of (Pos.to_uint p)) as U.
  rewrite DecimalPos.Unsigned.of_to in U. cbn [N.to_uint] in U. rewrite H in U.
  unfold Decimal.unorm in U. cbn [Decimal.nzhead] in U. destruct (Decimal.nzhead d) eqn:E; try discriminate U.
  - injection U as ->. exact (DecimalPos.Unsigned.to_uint_nonzero p H).
  - exact (nzhead_nonzero d _ E).
Qed.

Lemma string_of_uint_inj d d' :
  NilEmpty.string_of_uint d = NilEmpty.string_of_uint d' -> d = d'.
Proof.
  intro H. pose proof (NilEmpty.usu d) as A. rewrite H, NilEmpty.usu in A. now injection A.
Qed.

Lemma pos_text p :
  exists c s, NilEmpty.string_of_uint (Pos.to_uint p) = String c s /\
              in_range "1" "9" c = true /\ all_chars digit_char s = true.
Proof.
  pose proof (to_uint_head p) as Hh. pose proof (DecimalPos.Unsigned.to_uint_nonnil p) as Hn.
  destruct (Pos.to_uint p) as [|d|d|d|d|d|d|d|d|d|d]; [congruence|destruct (Hh d eq_refl)|..];
    (eexists _, _; split; [reflexivity|]; split; [reflexivity|apply uint_text_digits]).
Qed.

Lemma nonzero_digit c :
  in_range "1" "9" c = true -> digit_char c = true /\ Ascii.eqb c "0" = false.
Proof.
  unfold digit_char, digit, in_range. intro H. apply andb_prop in H as [H1 H2]. split.
  - rewrite H2, andb_true_r. apply Nat.leb_le in H1. apply Nat.leb_le.
    change (code "0") with 48%nat. change (code "1") with 49%nat in H1. lia.
  - apply Ascii.eqb_neq. intros ->. discriminate H1.
Qed.

Lemma int_text_pos p : int_text (Z.pos p) = NilEmpty.string_of_uint (Pos.to_uint p).
Proof.
  unfold int_text. cbn [Z.to_int NilZero.string_of_int]. unfold NilZero.string_of_uint.
  destruct (Pos.to_uint p) eqn:E; try reflexivity. destruct (DecimalPos.Unsigned.to_uint_nonnil p E).
Qed.

Lemma int_text_neg p : int_text (Z.neg p) = String "-" (int_text (Z.pos p)).
Proof. reflexivity. Qed.

Definition sign_text (neg : bool) : string := if neg then "-" else "".

Lemma construct_decimal (neg : bool) p :
  construct_int (sign_text neg ++ NilEmpty.string_of_uint (Pos.to_uint p)) =
  Some (if neg then Z.neg p else Z.pos p).
Proof.
  destruct (pos_text p) as (c & s & E & Hc & Hs). destruct (nonzero_digit c Hc) as [Hd H0].
  assert (Hall : all_chars digit_char (String c s) = true) by (cbn [all_chars]; now rewrite Hd).
  assert (Hv : digits_value (String c s) = Some (Z.pos p)).
  { unfold digits_value. rewrite <- E, NilEmpty.usu. cbn [option_map].
    unfold Z.of_uint. now rewrite DecimalPos.Unsigned.of_to. }
  (* what construct_int does once the sign is taken off *)
  assert (Hu : forall sgn : Z,
             (if String.eqb (String c s) "0" then Some 0%Z
              else if Ascii.eqb c "0" then None
                   else if has_char ":" (String c s) then None
                        else option_map (fun n => (sgn * n)%Z) (digits_value (String c s)))
             = Some (sgn * Z.pos p)%Z).
  { intro sgn. cbn [String.eqb]. rewrite H0, (has_char_digits ":" _ eq_refl Hall), Hv. reflexivity. }
  rewrite E. unfold construct_int. destruct neg; cbn [sign_text append].
  - change (remove_char "_" (String "-" (String c s))) with (String "-" (remove_char "_" (String c s))).
    rewrite (remove_char_digits "_" _ eq_refl Hall).
    change (Ascii.eqb "-" "-") with true. change (one_of "+-" "-") with true. cbv iota. apply Hu.
  - rewrite (remove_char_digits "_" _ eq_refl Hall).
    assert (one_of "+-" c = false) as ->.
    { unfold one_of. cbn [list_ascii_of_string existsb]. now rewrite (digit_neq c "+" Hd eq_refl), (digit_neq c "-" Hd eq_refl). }
    rewrite (digit_neq c "-" Hd eq_refl). apply Hu.
Qed.

Theorem construct_int_text z : construct_int (int_text z) = Some z.
Proof.
  destruct z as [|p|p]; [reflexivity|..]; rewrite ?int_text_neg, int_text_pos.
  - exact (construct_decimal false p).
  - exact (construct_decimal true p).
Qed.

Lemma app_nil_r_s (s : string) : s ++ "" = s.
Proof. induction s as [|c s IH]; cbn [append]; [reflexivity|now rewrite IH]. Qed.

Lemma app_assoc_s (a b c : string) : (a ++ b) ++ c = a ++ (b ++ c).
Proof. induction a as [|x a IH]; cbn [append]; [reflexivity|now rewrite IH]. Qed.

Lemma lang_cat_iff a b s :
  lang (Cat a b) s <-> exists s1 s2, s = s1 ++ s2 /\ lang a s1 /\ lang b s2.
Proof. split; [inversion 1; subst; eauto|intros (s1 & s2 & -> & H1 & H2); now constructor]. Qed.

Lemma lang_alt_iff a b s : lang (Alt a b) s <-> lang a s \/ lang b s.
Proof. split; [inversion 1; subst; auto|intros [H|H]; [now apply LAltL|now apply LAltR]]. Qed.

Lemma lang_emp s : lang Emp s <-> False.
Proof. split; inversion 1. Qed.

Lemma lang_eps s : lang Eps s <-> s = "".
Proof. split; [inversion 1; reflexivity|intros ->; constructor]. Qed.

Lemma lang_chr p s : lang (Chr p) s <-> exists c, s = String c "" /\ p c = true.
Proof. split; [inversion 1; subst; eauto|intros (c & -> & H); now constructor]. Qed.

Lemma nullable_lang r : nullable r = true <-> lang r "".
Proof.
  induction r as [| |p|a IHa b IHb|a IHa b IHb|a IHa]; cbn [nullable].
  - rewrite lang_emp. split; [discriminate|tauto].
  - rewrite lang_eps. tauto.
  - rewrite lang_chr. split; [discriminate|]. intros (c & E & _). discriminate.
  - rewrite andb_true_iff, IHa, IHb, lang_cat_iff. split.
    + intros [Ha Hb]. now exists "", "".
    + intros ([|c s1] & s2 & E & H1 & H2); [|discriminate E]. cbn [append] in E. subst s2. auto.
  - now rewrite orb_true_iff, IHa, IHb, lang_alt_iff.
  - split; [constructor|reflexivity].
Qed.

Lemma cat_lang a b s : lang (cat a b) s <-> exists s1 s2, s = s1 ++ s2 /\ lang a s1 /\ lang b s2.
Proof.
  assert (Hl : forall b, lang Emp s <-> exists s1 s2, s = s1 ++ s2 /\ lang Emp s1 /\ lang b s2).
  { intro. rewrite lang_emp. split; [tauto|]. intros (? & ? & _ & H & _). now apply lang_emp in H. }
  assert (Hr : forall a, lang Emp s <-> exists s1 s2, s = s1 ++ s2 /\ lang a s1 /\ lang Emp s2).
  { intro. rewrite lang_emp. split; [tauto|]. intros (? & ? & _ & _ & H). now apply lang_emp in H. }
  assert (Heps : forall b, lang b s <-> exists s1 s2, s = s1 ++ s2 /\ lang Eps s1 /\ lang b s2).
  { intro. setoid_rewrite lang_eps. split.
    - intro H. exists "", s. auto.
    - now intros (s1 & s2 & -> & -> & H2). }
  unfold cat. destruct a, b; try apply lang_cat_iff; apply Hl || apply Hr || apply Heps.
Qed.

Lemma alt_lang a b s : lang (alt a b) s <-> lang a s \/ lang b s.
Proof.
  assert (Hl : forall b, lang b s <-> lang Emp s \/ lang b s) by (intro; rewrite lang_emp; tauto).
  assert (Hr : forall a, lang a s <-> lang a s \/ lang Emp s) by (intro; rewrite lang_emp; tauto).
  unfold alt. destruct a, b; try apply lang_alt_iff; apply Hl || apply Hr.
Qed.

Lemma lang_cat_cons a b c s :
  lang (Cat a b) (String c s) <->
  (exists s1 s2, s = s1 ++ s2 /\ lang a (String c s1) /\ lang b s2) \/
  (nullable a = true /\ lang b (String c s)).
Proof.
  split.
  - intro H. apply lang_cat_iff in H as (s1 & s2 & E & H1 & H2). destruct s1 as [|c1 s1]; cbn [append] in E.
    + subst s2. right. split; [now apply nullable_lang|exact H2].
    + injection E as -> ->. left. eauto.
  - intros [(s1 & s2 & -> & H1 & H2)|[H1 H2]].
    + exact (LCat a b (String c s1) s2 H1 H2).
    + apply nullable_lang in H1. exact (LCat a b "" (String c s) H1 H2).
Qed.

Lemma lang_star_cons a c s :
  lang (Star a) (String c s) <->
  exists s1 s2, s = s1 ++ s2 /\ lang a (String c s1) /\ lang (Star a) s2.
Proof.
  split; [|intros (s1 & s2 & -> & H1 & H2); exact (LStarS a (String c s1) s2 H1 H2)].
  intro H. remember (Star a) as r eqn:Er. remember (String c s) as w eqn:Ew.
  induction H as [| | | | | |a' s1 s2 H1 _ H2 IH2]; try discriminate.
  injection Er as ->. destruct s1 as [|c1 s1]; cbn [append] in Ew.
  - exact (IH2 eq_refl Ew).
  - injection Ew as -> <-. exists s1, s2. auto.
Qed.

Lemma deriv_lang c r : forall s, lang (deriv c r) s <-> lang r (String c s).
Proof.
  induction r as [| |p|a IHa b IHb|a IHa b IHb|a IHa]; intro s; cbn [deriv].
  - now rewrite !lang_emp.
  - rewrite lang_emp, lang_eps. split; [tauto|discriminate].
  - rewrite lang_chr. destruct (p c) eqn:E; [rewrite lang_eps|rewrite lang_emp]; split.
    + intros ->. now exists c.
    + now intros (c' & [= -> ->] & _).
    + tauto.
    + intros (c' & [= -> ->] & Hp). congruence.
  - rewrite lang_cat_cons. destruct (nullable a).
    + rewrite alt_lang, cat_lang, IHb. setoid_rewrite IHa. tauto.
    + rewrite cat_lang. setoid_rewrite IHa. intuition discriminate.
  - now rewrite alt_lang, lang_alt_iff, IHa, IHb.
  - rewrite lang_star_cons, cat_lang. now setoid_rewrite IHa.
Qed.

Theorem re_match_lang r s : re_match r s = true <-> lang r s.
Proof.
  revert r. induction s as [|c s IH]; intro r; cbn [re_match].
  - apply nullable_lang.
  - rewrite IH. apply deriv_lang.
Qed.

Definition all_ascii : list ascii := map ascii_of_nat (seq 0 256).

(* every word of [r] contains the character [c] (a syntactic sufficient condition) *)
Fixpoint must_contain (c : ascii) (r : re) : bool :=
  match r with
  | Emp => true
  | Eps => false
  | Chr p => forallb (fun x => implb (p x) (Ascii.eqb x c)) all_ascii
  | Cat a b => must_contain c a || must_contain c b
  | Alt a b => must_contain c a && must_contain c b
  | Star _ => false
  end.

Lemma all_ascii_complete x : In x all_ascii.
Proof.
  unfold all_ascii. rewrite <- (ascii_nat_embedding x). apply in_map. apply in_seq.
  pose proof (nat_ascii_bounded x). lia.
Qed.

Lemma has_char_app c s1 s2 : has_char c (s1 ++ s2) = has_char c s1 || has_char c s2.
Proof. induction s1 as [|x s1 IH]; cbn [append has_char]; [reflexivity|]. now rewrite IH, orb_assoc. Qed.

Lemma must_contain_sound c r s : must_contain c r = true -> lang r s -> has_char c s = true.
Proof.
  intros M L. induction L as [|p x Hp|a b s1 s2 _ IH1 _ IH2|a b s _ IH|a b s _ IH| |]; cbn [must_contain] in M.
  - discriminate M.
  - rewrite forallb_forall in M. specialize (M x (all_ascii_complete x)). rewrite Hp in M. cbn [implb] in M.
    cbn [has_char]. now rewrite M.
  - rewrite has_char_app. apply orb_true_iff in M as [M|M]; [rewrite (IH1 M)|rewrite (IH2 M), orb_true_r]; reflexivity.
  - apply andb_prop in M as [M _]. auto.
  - apply andb_prop in M as [_ M]. auto.
  - discriminate M.
  - discriminate M.
Qed.

(* each of the five alternatives of the float pattern has a literal "." *)
Lemma float_needs_dot s : re_match re_float s = true -> has_char "." s = true.
Proof. intro H. apply re_match_lang in H. eapply must_contain_sound; [|exact H]. vm_compute. reflexivity. Qed.

Lemma chop_has_nl s s' : chop_final_newline s = Some s' -> has_char nl s = true.
Proof.
  revert s'. induction s as [|c s IH]; intro s'; cbn [chop_final_newline]; [discriminate|].
  destruct s as [|c2 s2].
  - destruct (Ascii.eqb c nl) eqn:E; [|discriminate]. intros _. cbn [has_char]. now rewrite E.
  - destruct (chop_final_newline (String c2 s2)) eqn:E; [|discriminate]. intros _.
    cbn [has_char] in *. rewrite (IH _ eq_refl). apply orb_true_r.
Qed.

Lemma sign_digits_no c s (x : ascii) :
  (digit_char c = true \/ c = "-"%char) -> all_chars digit_char s = true ->
  digit_char x = false -> Ascii.eqb "-" x = false -> has_char x (String c s) = false.
Proof.
  intros Hc Hs Hx Hm. cbn [has_char]. rewrite (has_char_digits x s Hx Hs), orb_false_r.
  destruct Hc as [Hc| ->]; [now apply digit_neq|exact Hm].
Qed.

(* a text without "." and without a newline is not a float *)
Lemma not_float c s :
  (digit_char c = true \/ c = "-"%char) -> all_chars digit_char s = true ->
  anchored_match re_float (String c s) = false.
Proof.
  intros Hc Hs. unfold anchored_match.
  destruct (re_match re_float (String c s)) eqn:E.
  - apply float_needs_dot in E. rewrite (sign_digits_no c s "." Hc Hs eq_refl eq_refl) in E. discriminate.
  - destruct (chop_final_newline (String c s)) eqn:E2; [|reflexivity].
    apply chop_has_nl in E2. rewrite (sign_digits_no c s nl Hc Hs eq_refl eq_refl) in E2. discriminate.
Qed.

Lemma digits_star s : all_chars digit_char s = true -> lang (Star (Chr digit_us)) s.
Proof.
  induction s as [|c s IH]; cbn [all_chars]; [constructor|]. intro H. apply andb_prop in H as [Hc Hs].
  apply (LStarS _ (String c "") s); [|now apply IH].
  constructor. unfold digit_us, either. unfold digit_char in Hc. now rewrite Hc.
Qed.

(* [-]d1..dn with d1 <> 0 is a word of the third alternative of the int pattern *)
Lemma int_matches neg c s :
  in_range "1" "9" c = true -> all_chars digit_char s = true ->
  anchored_match re_int (sign_text neg ++ String c s) = true.
Proof.
  intros Hc Hs. unfold anchored_match. apply orb_true_iff. left. apply re_match_lang.
  unfold re_int. cbn [alts cats]. apply LAltR, LAltR, LAltL. constructor.
  - destruct neg; [apply LAltL; now constructor|apply LAltR; constructor].
  - apply LAltR. apply (LCat _ _ (String c "") s); [now constructor|now apply digits_star].
Qed.

Lemma digit_cases c : digit_char c = true -> In c (list_ascii_of_string "0123456789").
Proof.
  unfold digit_char, digit, in_range. intro H. apply andb_prop in H as [H1 H2].
  apply Nat.leb_le in H1, H2. change (code "0") with 48%nat in H1. change (code "9") with 57%nat in H2.
  rewrite <- (ascii_nat_embedding c). apply (in_map ascii_of_nat (seq 48 10)). apply in_seq.
  unfold code in *. lia.
Qed.

Lemma filed_digit c s :
  digit_char c = true ->
  filter (filed_under (String c s)) implicit_resolvers =
  [mkIR TgFloat "-+0123456789." false re_float; mkIR TgInt "-+0123456789" false re_int;
   mkIR TgTimestamp "0123456789" false re_timestamp].
Proof.
  intro Hc. apply digit_cases in Hc. cbn [list_ascii_of_string In] in Hc.
  destruct Hc as [<-|[<-|[<-|[<-|[<-|[<-|[<-|[<-|[<-|[<-|[]]]]]]]]]]]; reflexivity.
Qed.

Theorem int_text_resolves z : resolve_plain (int_text z) = TgInt.
Proof.
  destruct z as [|p|p]; [reflexivity|..]; rewrite ?int_text_neg, int_text_pos;
    destruct (pos_text p) as (c & s & -> & Hc & Hs); destruct (nonzero_digit c Hc) as [Hd _];
    unfold resolve_plain.
  - pose proof (int_matches false c s Hc Hs) as Hi. cbn [sign_text append] in Hi.
    rewrite (filed_digit c s Hd). cbn [first_match ir_re ir_tag].
    now rewrite (not_float c s (or_introl Hd) Hs), Hi.
  - pose proof (int_matches true c s Hc Hs) as Hi. cbn [sign_text append] in Hi.
    change (filter _ _) with [mkIR TgFloat "-+0123456789." false re_float; mkIR TgInt "-+0123456789" false re_int].
    cbn [first_match ir_re ir_tag]. rewrite not_float, Hi; auto.
    cbn [all_chars]. now rewrite Hd.
Qed.
