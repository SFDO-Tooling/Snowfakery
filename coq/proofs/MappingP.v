(* Proofs about theories/Mapping.v (property C16).
   The table sorter is treated through one description of a pass of its loop ([sort_loop_step]) and
   an invariant rule ([sort_loop_rule]); the OrderedSets of the code (dependencies, load steps, field
   names, table names) through one set of lemmas about insertion ([oadd]); the generator itself by
   following a load step through the pipeline ([made_from]), with the load steps of a recipe
   characterised once ([mapped_steps_spec]). *)
From Coq Require Import String Ascii List Lia Bool Arith Permutation Sorted.
From SFV Require Import Base Mapping.
From SFV.P Require Import BaseP.
Import ListNotations.
Open Scope string_scope.
Open Scope list_scope.
Open Scope nat_scope.

(* OrderedSet.add, and dict keys under update: [x] is appended unless it is there already.
   [oset_add], [lset_add] and the step of [add_new] are instances. *)
Section OrderedSet.
Context {A : Type} (eqb : A -> A -> bool) (eqb_eq : forall a b, eqb a b = true <-> a = b).

Definition oadd (acc : list A) (x : A) : list A := if existsb (eqb x) acc then acc else acc ++ [x].

Lemma oadd_In acc x y : In y (oadd acc x) <-> y = x \/ In y acc.
Proof.
  unfold oadd. destruct (existsb (eqb x) acc) eqn:E.
  - apply (existsb_eqb_In eqb eqb_eq) in E. split; [auto|]. intros [->|H]; assumption.
  - rewrite in_app_iff. cbn [In]. intuition congruence.
Qed.

Lemma oadd_NoDup acc x : NoDup acc -> NoDup (oadd acc x).
Proof.
  intros H. unfold oadd. destruct (existsb (eqb x) acc) eqn:E; [assumption|].
  apply (Permutation_NoDup (Permutation_cons_append acc x)). constructor; [|assumption].
  rewrite <- (existsb_eqb_In eqb eqb_eq). congruence.
Qed.

Lemma fold_oadd_In l y : forall acc, In y (fold_left oadd l acc) <-> In y acc \/ In y l.
Proof.
  induction l as [|x r IH]; intros acc; cbn [fold_left In]; [tauto|].
  rewrite IH, oadd_In. intuition congruence.
Qed.

Lemma fold_oadd_NoDup l : forall acc, NoDup acc -> NoDup (fold_left oadd l acc).
Proof.
  induction l as [|x r IH]; intros acc H; cbn [fold_left]; [assumption|]. apply IH, oadd_NoDup, H.
Qed.

Lemma fold_oadd_fresh l : forall acc, NoDup (acc ++ l) -> fold_left oadd l acc = acc ++ l.
Proof.
  induction l as [|x r IH]; intros acc H; cbn [fold_left]; [symmetry; apply app_nil_r|].
  replace (oadd acc x) with (acc ++ [x]).
  - rewrite IH; rewrite <- app_assoc; [reflexivity|assumption].
  - unfold oadd. destruct (existsb (eqb x) acc) eqn:E; [|reflexivity].
    apply (existsb_eqb_In eqb eqb_eq) in E. apply NoDup_remove_2 in H. exfalso. apply H, in_or_app. auto.
Qed.
End OrderedSet.

Lemma filter_length_cases {A} (p : A -> bool) l :
  filter p l = l /\ (forall x, In x l -> p x = true) \/ length (filter p l) < length l.
Proof.
  induction l as [|x r IH]; cbn [filter length In]; [left; split; [reflexivity|tauto]|].
  destruct (p x) eqn:E; cbn [length].
  - destruct IH as [[H1 H2]|H]; [left|right; lia].
    split; [rewrite H1; reflexivity|]. intros y [<-|Hy]; auto.
  - right. destruct IH as [[H1 _]|H]; [rewrite H1|]; lia.
Qed.

Lemma exists_min {A} (f : A -> nat) (l : list A) :
  l <> [] -> exists t, In t l /\ forall u, In u l -> f t <= f u.
Proof.
  induction l as [|x [|y r] IH]; intros Hne; [congruence| |].
  - exists x. split; [left; reflexivity|]. intros u [<-|[]]. lia.
  - destruct IH as (t & Ht & Hmin); [discriminate|]. destruct (le_lt_dec (f x) (f t)).
    + exists x. split; [left; reflexivity|]. intros u [<-|Hu]; [lia|]. specialize (Hmin u Hu). lia.
    + exists t. split; [right; assumption|]. intros u [<-|Hu]; [lia|auto].
Qed.

Lemma map_filter {A B} (f : A -> B) (p : B -> bool) l :
  map f (filter (fun x => p (f x)) l) = filter p (map f l).
Proof.
  induction l as [|x r IH]; cbn [filter map]; [reflexivity|].
  destruct (p (f x)); cbn [map]; rewrite IH; reflexivity.
Qed.

Lemma NoDup_map_inj_in {A B} (f : A -> B) l :
  NoDup l -> (forall x y, In x l -> In y l -> f x = f y -> x = y) -> NoDup (map f l).
Proof.
  induction 1 as [|a r Ha Hr IH]; intros Hinj; cbn [map]; constructor.
  - intros Hin. apply in_map_iff in Hin. destruct Hin as (y & Hy1 & Hy2). apply Ha.
    rewrite <- (Hinj y a); [assumption|right; assumption|left; reflexivity|assumption].
  - apply IH. intros x y Hx Hy. apply Hinj; right; assumption.
Qed.

Lemma Forall2_In_r {A B} (R : A -> B -> Prop) l1 l2 y :
  Forall2 R l1 l2 -> In y l2 -> exists x, In x l1 /\ R x y.
Proof.
  induction 1 as [|a b r r' Hab Hr IH]; intros Hy; [destruct Hy|].
  destruct Hy as [<-|Hy]; [exists a; split; [left; reflexivity|assumption]|].
  destruct (IH Hy) as (x & H1 & H2). exists x. split; [right; assumption|assumption].
Qed.

Lemma Forall2_weaken {A B} (R1 R2 : A -> B -> Prop) l1 l2 :
  (forall a b, R1 a b -> R2 a b) -> Forall2 R1 l1 l2 -> Forall2 R2 l1 l2.
Proof. intros H F. induction F; constructor; auto. Qed.

Lemma Forall2_map_eq {A B C} (R : A -> B -> Prop) (f : A -> C) (g : B -> C) l1 l2 :
  Forall2 R l1 l2 -> (forall a b, R a b -> f a = g b) -> map f l1 = map g l2.
Proof.
  intros H Hfg. induction H as [|a b r r' Hab Hr IH]; cbn [map]; [reflexivity|].
  rewrite IH, (Hfg _ _ Hab). reflexivity.
Qed.

Lemma Forall2_compose {A B C} (R1 : A -> B -> Prop) (R2 : B -> C -> Prop) (R : A -> C -> Prop) l1 :
  (forall a b c, R1 a b -> R2 b c -> R a c) ->
  forall l2 l3, Forall2 R1 l1 l2 -> Forall2 R2 l2 l3 -> Forall2 R l1 l3.
Proof.
  intros HR. induction l1 as [|a r IH]; intros l2 l3 H1 H2; inversion H1; subst; inversion H2; subst;
    constructor; eauto.
Qed.

Lemma list_eqb_eq {A} (eqb : A -> A -> bool) (eqb_eq : forall a b, eqb a b = true <-> a = b) l1 l2 :
  list_eqb eqb l1 l2 = true <-> l1 = l2.
Proof.
  revert l2. induction l1 as [|x r IH]; intros [|y s]; cbn [list_eqb];
    try (split; intros H; (reflexivity || discriminate H)).
  rewrite andb_true_iff, eqb_eq, IH. split; [intros [-> ->]; reflexivity|intros [= -> ->]; auto].
Qed.

Lemma option_eqb_eq {A} (eqb : A -> A -> bool) (eqb_eq : forall a b, eqb a b = true <-> a = b) o1 o2 :
  option_eqb eqb o1 o2 = true <-> o1 = o2.
Proof.
  destruct o1 as [x|], o2 as [y|]; cbn [option_eqb];
    try (split; intros H; (reflexivity || discriminate H)).
  rewrite eqb_eq. split; [intros ->; reflexivity|intros [= ->]; reflexivity].
Qed.

Lemma mem_In x l : mem x l = true <-> In x l.
Proof. apply (existsb_eqb_In String.eqb String.eqb_eq). Qed.

Lemma mem_false x l : mem x l = false <-> ~ In x l.
Proof. rewrite <- mem_In. symmetry. apply not_true_iff_false. Qed.

Lemma mem_app x l1 l2 : mem x (l1 ++ l2) = mem x l1 || mem x l2.
Proof. apply existsb_app. Qed.

Lemma index_of_spec x l :
  match index_of x l with Some i => In x l /\ i < length l | None => ~ In x l end.
Proof.
  induction l as [|y r IH]; cbn [index_of In length]; [tauto|].
  destruct (String.eqb_spec x y) as [E|E]; [split; [auto|lia]|].
  destruct (index_of x r); cbn [option_map]; [split; [tauto|lia]|]. intros [H|H]; [congruence|tauto].
Qed.

Lemma index_of_In x l : In x l -> exists i, index_of x l = Some i /\ i < length l.
Proof.
  intros H. pose proof (index_of_spec x l) as S. destruct (index_of x l) as [i|]; [exists i|]; tauto.
Qed.

Lemma index_of_None x l : index_of x l = None <-> ~ In x l.
Proof.
  pose proof (index_of_spec x l) as S. destruct (index_of x l); [|tauto]. split; [discriminate|tauto].
Qed.

Lemma index_of_app x l1 l2 :
  index_of x (l1 ++ l2) =
  match index_of x l1 with
  | Some i => Some i
  | None => option_map (Nat.add (length l1)) (index_of x l2)
  end.
Proof.
  induction l1 as [|y r IH]; cbn [index_of app length]; [destruct (index_of x l2); reflexivity|].
  destruct (String.eqb x y); [reflexivity|]. rewrite IH.
  destruct (index_of x r); [reflexivity|]. destruct (index_of x l2); reflexivity.
Qed.

Lemma min_str_spec l : match min_str l with Some m => In m l | None => l = [] end.
Proof.
  induction l as [|x r IH]; cbn [min_str In]; [reflexivity|].
  destruct (min_str r) as [m|]; [destruct (String.leb x m)|]; auto.
Qed.

Lemma assoc_get_dict_set {A} k k' (v : A) l :
  assoc_get k (dict_set k' v l) = if String.eqb k k' then Some v else assoc_get k l.
Proof.
  induction l as [|[k0 v0] r IH]; cbn [dict_set assoc_get]; [reflexivity|].
  destruct (String.eqb_spec k' k0) as [<-|E]; cbn [assoc_get].
  - destruct (String.eqb k k'); reflexivity.
  - rewrite IH. destruct (String.eqb_spec k k0) as [<-|E2]; [|reflexivity].
    rewrite (proj2 (String.eqb_neq _ _)) by congruence. reflexivity.
Qed.

Lemma dict_set_notin {A} k (v : A) l : ~ In k (map fst l) -> dict_set k v l = l ++ [(k, v)].
Proof.
  induction l as [|[k0 v0] r IH]; cbn [dict_set map fst In app]; intros H; [reflexivity|].
  destruct (String.eqb_spec k k0) as [E|E]; [symmetry in E; tauto|]. rewrite IH; [reflexivity|tauto].
Qed.

Lemma dict_set_In {A} k (v : A) l kv : In kv (dict_set k v l) -> kv = (k, v) \/ In kv l.
Proof.
  induction l as [|[k0 v0] r IH]; cbn [dict_set In].
  - intros [H|[]]; auto.
  - destruct (String.eqb k k0); cbn [In]; intros [H|H]; auto. destruct (IH H); auto.
Qed.

Lemma fold_dict_set_nodup {A} (kvs : list (string * A)) : forall acc,
  NoDup (map fst (acc ++ kvs)) ->
  fold_left (fun a nm => dict_set (fst nm) (snd nm) a) kvs acc = acc ++ kvs.
Proof.
  induction kvs as [|[k v] r IH]; intros acc H; cbn [fold_left fst snd]; [symmetry; apply app_nil_r|].
  rewrite dict_set_notin.
  - rewrite IH; rewrite <- app_assoc; [reflexivity|assumption].
  - rewrite map_app in H. apply NoDup_remove_2 in H. intros Hin. apply H, in_or_app. auto.
Qed.

Lemma fold_dict_set_In {A} (kvs : list (string * A)) : forall acc kv,
  In kv (fold_left (fun a nm => dict_set (fst nm) (snd nm) a) kvs acc) -> In kv acc \/ In kv kvs.
Proof.
  induction kvs as [|[k v] r IH]; intros acc kv H; cbn [fold_left fst snd] in H; [auto|].
  destruct (IH _ _ H) as [H1|H1]; [|right; right; assumption].
  destruct (dict_set_In _ _ _ _ H1) as [H2|H2]; [right; left; auto|auto].
Qed.

Lemma mapM_Forall2 {A B} (f : A -> result B) l : forall l',
  mapM f l = Ok l' -> Forall2 (fun x y => f x = Ok y) l l'.
Proof.
  induction l as [|x r IH]; intros l' H; cbn [mapM] in H.
  - injection H as <-. constructor.
  - destruct (f x) as [y|e] eqn:E; [|discriminate]. destruct (mapM f r) as [ys|e]; [|discriminate].
    injection H as <-. constructor; [assumption|apply IH; reflexivity].
Qed.

Lemma mapM_ok {A B} (f : A -> result B) l :
  (forall x, In x l -> exists y, f x = Ok y) -> exists l', mapM f l = Ok l'.
Proof.
  induction l as [|x r IH]; intros H; cbn [mapM]; [eexists; reflexivity|].
  destruct (H x (or_introl eq_refl)) as [y ->]. destruct IH as [ys ->]; [intros z Hz; apply H; right; exact Hz|].
  eexists; reflexivity.
Qed.

Lemma mapM_ext {A B} (f g : A -> result B) l : (forall x, f x = g x) -> mapM f l = mapM g l.
Proof. intros H. induction l as [|x r IH]; cbn [mapM]; [reflexivity|]. rewrite H, IH. reflexivity. Qed.

Lemma dep_eqb_eq a b : dep_eqb a b = true <-> a = b.
Proof.
  destruct a as [a1 a2 a3], b as [b1 b2 b3]. unfold dep_eqb. cbn [d_from d_to d_field].
  rewrite !andb_true_iff, !String.eqb_eq. split.
  - intros [[-> ->] ->]. reflexivity.
  - intros [= -> -> ->]. auto.
Qed.

Lemma oset_add_In d l x : In x (oset_add d l) <-> x = d \/ In x l.
Proof. apply (oadd_In dep_eqb dep_eqb_eq). Qed.

Lemma oset_add_NoDup d l : NoDup l -> NoDup (oset_add d l).
Proof. apply (oadd_NoDup dep_eqb dep_eqb_eq). Qed.

Lemma save_load_id l : NoDup l -> save_load l = l.
Proof. apply (fold_oadd_fresh dep_eqb dep_eqb_eq l []). Qed.

Lemma run_events_NoDup evs : forall st, NoDup st -> NoDup (run_events evs st).
Proof.
  induction evs as [|[d|] r IH]; intros st H; cbn [run_events]; [assumption| |].
  - apply IH. apply oset_add_NoDup. assumption.
  - apply IH. rewrite save_load_id; assumption.
Qed.

Theorem deps_persist evs : forall st,
  NoDup st -> run_events evs st = run_events (filter is_obs evs) st.
Proof.
  induction evs as [|[d|] r IH]; intros st H; cbn [run_events filter is_obs]; [reflexivity| |].
  - apply IH. apply oset_add_NoDup. assumption.
  - rewrite save_load_id by assumption. apply IH. assumption.
Qed.

Lemma is_free_spec tg sorted t :
  is_free tg sorted t = true <-> forall x, In x (tg t) -> In x sorted \/ x = t.
Proof.
  unfold is_free. rewrite forallb_forall. split; intros H x Hx.
  - apply H in Hx. apply orb_true_iff in Hx. rewrite mem_In, String.eqb_eq in Hx. exact Hx.
  - apply orb_true_iff. rewrite mem_In, String.eqb_eq. auto.
Qed.

Definition before (x t : string) (l : list string) : Prop :=
  exists i j, index_of x l = Some i /\ index_of t l = Some j /\ i < j.

Lemma before_app_l x t l l' : before x t l -> before x t (l ++ l').
Proof. intros (i & j & Hi & Hj & Hij). exists i, j. rewrite !index_of_app, Hi, Hj. auto. Qed.

Lemma before_app_r x t l l' : In x l -> ~ In t l -> In t l' -> before x t (l ++ l').
Proof.
  intros Hx Ht Ht'. destruct (index_of_In _ _ Hx) as [i [Hi Hil]].
  destruct (index_of_In _ _ Ht') as [k [Hk _]]. apply index_of_None in Ht.
  exists i, (length l + k). rewrite !index_of_app, Hi, Ht, Hk. splits; [reflexivity..|lia].
Qed.

Section SortLoop.
Variable tg : string -> list string.
Variable stuck : list string -> result (list string).

(* one pass of the `while tables` loop: [sorted1] and [tables1] of the model *)
Definition pass_sorted (tables sorted : list string) : list string :=
  sorted ++ filter (is_free tg sorted) tables.
Definition pass_tables (tables sorted : list string) : list string :=
  filter (fun t => negb (mem t (pass_sorted tables sorted))) tables.

Lemma pass_sorted_In tables sorted x :
  In x (pass_sorted tables sorted) <-> In x sorted \/ In x tables /\ is_free tg sorted x = true.
Proof. unfold pass_sorted. rewrite in_app_iff, filter_In. reflexivity. Qed.

Lemma pass_tables_In tables sorted x :
  In x (pass_tables tables sorted) <-> In x tables /\ ~ In x (pass_sorted tables sorted).
Proof. unfold pass_tables. rewrite filter_In, negb_true_iff, mem_false. reflexivity. Qed.

Lemma pass_elements tables sorted x :
  In x (pass_tables tables sorted) \/ In x (pass_sorted tables sorted) <-> In x tables \/ In x sorted.
Proof.
  split.
  - intros [H|H]; [apply pass_tables_In in H; left; apply H|].
    apply pass_sorted_In in H. destruct H as [H|[H _]]; auto.
  - intros [H|H]; [|right; apply pass_sorted_In; auto].
    destruct (in_dec string_dec x (pass_sorted tables sorted)) as [Hi|Hn]; [right; exact Hi|].
    left. apply pass_tables_In. auto.
Qed.

Lemma sort_loop_step fuel tables sorted :
  tables <> [] ->
  pass_tables tables sorted = tables /\
  sort_loop tg stuck (S fuel) tables sorted =
    (do sub <- stuck tables; sort_loop tg stuck fuel tables (pass_sorted tables sorted ++ sub)) \/
  length (pass_tables tables sorted) < length tables /\
  sort_loop tg stuck (S fuel) tables sorted =
    sort_loop tg stuck fuel (pass_tables tables sorted) (pass_sorted tables sorted).
Proof.
  intros Hne.
  replace (sort_loop tg stuck (S fuel) tables sorted) with
    (if Nat.eqb (length (pass_tables tables sorted)) (length tables)
     then do sub <- stuck (pass_tables tables sorted);
          sort_loop tg stuck fuel (pass_tables tables sorted) (pass_sorted tables sorted ++ sub)
     else sort_loop tg stuck fuel (pass_tables tables sorted) (pass_sorted tables sorted))
    by (destruct tables; [congruence|reflexivity]).
  destruct (filter_length_cases (fun t => negb (mem t (pass_sorted tables sorted))) tables)
    as [[Eq _]|Hlt]; fold (pass_tables tables sorted) in *.
  - left. rewrite Eq, Nat.eqb_refl. auto.
  - right. split; [assumption|]. rewrite (proj2 (Nat.eqb_neq _ _)) by lia. reflexivity.
Qed.

Lemma sort_loop_rule (P : list string -> list string -> Prop) :
  (forall tables sorted sub, P tables sorted -> tables <> [] ->
     pass_tables tables sorted = tables -> stuck tables = Ok sub ->
     P tables (pass_sorted tables sorted ++ sub)) ->
  (forall tables sorted, P tables sorted -> P (pass_tables tables sorted) (pass_sorted tables sorted)) ->
  forall fuel tables sorted l,
    P tables sorted -> sort_loop tg stuck fuel tables sorted = Ok l -> P [] l.
Proof.
  intros Hstuck Hpass. induction fuel as [|fuel IH]; intros [|t0 r0] sorted l HP H;
    try (injection H as <-; exact HP); [discriminate|].
  assert (Hne : t0 :: r0 <> []) by discriminate.
  destruct (sort_loop_step fuel _ sorted Hne) as [[Eq E]|[_ E]]; rewrite E in H;
    [|apply (IH _ _ _ (Hpass _ _ HP) H)].
  destruct (stuck (t0 :: r0)) as [sub|] eqn:Es; [|discriminate]. cbn [bind] in H.
  apply (IH _ _ _ (Hstuck _ _ _ HP Hne Eq Es) H).
Qed.

Definition stuck_ok : Prop :=
  forall ts, ts <> [] -> exists sub, stuck ts = Ok sub /\ sub <> [] /\ incl sub ts.

(* twice the tables left, less one when some table left is in the order already (it goes with the
   next pass): a pass that sorts nothing brings such a table about *)
Definition mu (tables sorted : list string) : nat :=
  2 * length tables - (if existsb (fun t => mem t sorted) tables then 1 else 0).

Lemma overlap_spec tables sorted :
  existsb (fun t => mem t sorted) tables = true <-> exists t, In t tables /\ In t sorted.
Proof. rewrite existsb_exists. split; intros [t [H1 H2]]; exists t; split; auto; apply mem_In, H2. Qed.

Lemma sort_loop_terminates :
  stuck_ok ->
  forall fuel tables sorted, mu tables sorted < fuel ->
  exists l, sort_loop tg stuck fuel tables sorted = Ok l.
Proof.
  intros Hst. induction fuel as [|fuel IH]; intros tables sorted Hmu; [lia|].
  destruct tables as [|t0 r0]; [eexists; reflexivity|].
  assert (Hlen : 0 < length (t0 :: r0)) by (cbn [length]; lia). set (tables := t0 :: r0) in *.
  destruct (sort_loop_step fuel tables sorted) as [[Eq E]|[Hlt E]]; [discriminate| |]; rewrite E.
  - destruct (Hst tables) as (sub & -> & Hne & Hsub); [discriminate|]. cbn [bind]. apply IH.
    destruct sub as [|x sub]; [congruence|].
    assert (F0 : existsb (fun t => mem t sorted) tables = false).
    { destruct (existsb _ tables) eqn:F; [|reflexivity]. apply overlap_spec in F.
      destruct F as [t [H1 H2]]. rewrite <- Eq in H1. apply pass_tables_In in H1.
      destruct (proj2 H1). apply pass_sorted_In. auto. }
    assert (F1 : existsb (fun t => mem t (pass_sorted tables sorted ++ x :: sub)) tables = true).
    { apply overlap_spec. exists x. split; [apply Hsub; left; reflexivity|].
      apply in_or_app. right. left. reflexivity. }
    unfold mu in *. rewrite F1. rewrite F0 in Hmu. lia.
  - apply IH. unfold mu in *. do 2 destruct (existsb _ _); lia.
Qed.

Lemma sort_loop_elements :
  stuck_ok ->
  forall fuel tables sorted l, sort_loop tg stuck fuel tables sorted = Ok l ->
  forall x, In x l <-> In x tables \/ In x sorted.
Proof.
  intros Hst fuel tables sorted l H x.
  apply (sort_loop_rule (fun ts s => In x ts \/ In x s <-> In x tables \/ In x sorted)) in H;
    [| | |reflexivity].
  - etransitivity; [|exact H]. split; [intros Hx; right; exact Hx|intros [[]|Hx]; exact Hx].
  - intros ts s sub HP Hne Eq Es. destruct (Hst ts Hne) as (sub' & Es' & _ & Hsub).
    rewrite Es in Es'. injection Es' as <-. specialize (Hsub x).
    etransitivity; [|exact HP]. etransitivity; [|apply pass_elements]. rewrite Eq, in_app_iff.
    clear -Hsub. tauto.
  - intros ts s HP. etransitivity; [apply pass_elements|exact HP].
Qed.

(* the graph over [all] is closed, and acyclic when self loops are ignored: [rank] decreases
   along every other edge *)
Variable all : list string.
Variable rank : string -> nat.
Hypothesis Hgraph : forall t x, In t all -> In x (tg t) -> x <> t -> In x all /\ rank x < rank t.

Definition sinv (tables sorted : list string) : Prop :=
  NoDup tables /\ NoDup sorted /\
  (forall t, In t all <-> In t tables \/ In t sorted) /\
  (forall t, In t tables -> ~ In t sorted) /\
  (forall t x, In t sorted -> In x (tg t) -> x <> t -> before x t sorted).

Lemma sort_loop_sound fuel l :
  NoDup all -> sort_loop tg stuck fuel all [] = Ok l ->
  NoDup l /\ forall t x, In t all -> In x (tg t) -> x <> t -> before x t l.
Proof.
  intros Hnd H. apply (sort_loop_rule sinv) in H.
  - destruct H as (_ & Hndl & Hall & _ & Hbef). split; [assumption|].
    intros t x Ht. apply Hbef. apply Hall in Ht. destruct Ht as [[]|Ht]. exact Ht.
  - (* a table of least rank among those left is free, so every pass sorts something *)
    intros ts s sub (_ & _ & Hall & _ & _) Hne Eq _. exfalso.
    destruct (exists_min rank ts Hne) as [tm [Htm Hmin]].
    assert (Hno : ~ In tm (pass_sorted ts s)) by (rewrite <- Eq in Htm; apply pass_tables_In in Htm; tauto).
    apply Hno, pass_sorted_In. right. split; [assumption|].
    apply is_free_spec. intros x Hx. destruct (string_dec x tm) as [|Hxt]; [auto|left].
    destruct (Hgraph tm x) as [Hxa Hr]; [apply Hall; auto|assumption..|].
    apply Hall in Hxa. destruct Hxa as [Hxa|Hxa]; [|assumption]. specialize (Hmin x Hxa). lia.
  - intros ts s (Hndt & Hnds & Hall & Hdisj & Hbef).
    assert (Hleaf : forall y, In y (filter (is_free tg s) ts) -> In y ts /\ is_free tg s y = true)
      by (intros y; apply filter_In).
    unfold sinv. splits.
    + apply NoDup_filter, Hndt.
    + apply NoDup_app_intro; [assumption|apply NoDup_filter, Hndt|].
      intros y Hy Hy2. apply Hleaf in Hy2. apply (Hdisj y); tauto.
    + intros t. rewrite Hall. symmetry. apply pass_elements.
    + intros t Ht. apply pass_tables_In in Ht. tauto.
    + intros t x Ht Hx Hxt. apply in_app_or in Ht. destruct Ht as [Ht|Ht].
      * apply before_app_l, Hbef; assumption.
      * apply Hleaf in Ht. destruct Ht as [Ht Hf].
        apply before_app_r; [|apply Hdisj, Ht|apply filter_In; auto].
        destruct (proj1 (is_free_spec _ _ _) Hf x Hx); [assumption|contradiction].
  - unfold sinv. splits; [assumption|constructor|cbn [In]; tauto|auto|intros ? ? []].
Qed.

End SortLoop.

Lemma stuck_min_ok : stuck_ok stuck_min.
Proof.
  intros ts Hne. unfold stuck_min. pose proof (min_str_spec ts) as S.
  destruct (min_str ts) as [m|]; [|contradiction].
  exists [m]. splits; [reflexivity|discriminate|]. intros x [<-|[]]. exact S.
Qed.

Lemma mu_fuel tables : mu tables [] < sort_fuel tables.
Proof. unfold mu, sort_fuel. destruct (existsb _ _); lia. Qed.

Lemma sort_declared_only_ok declared : stuck_ok (sort_declared_only declared).
Proof.
  intros ts Hne. unfold sort_declared_only.
  destruct (sort_loop_terminates (tg_of declared) _ stuck_min_ok _ ts [] (mu_fuel ts)) as [sub Hsub].
  pose proof (sort_loop_elements _ _ stuck_min_ok _ _ _ _ Hsub) as Hel. cbn [In] in Hel.
  exists sub. splits; [assumption| |intros x Hx; apply Hel in Hx; tauto].
  destruct ts as [|x r]; [congruence|]. intros ->. apply (Hel x). left. left. reflexivity.
Qed.

Lemma sort_dependencies_stuck_ok (nested : bool) declared :
  stuck_ok (if nested then sort_declared_only declared else stuck_min).
Proof. destruct nested; [apply sort_declared_only_ok|apply stuck_min_ok]. Qed.

Theorem sort_terminates inferred declared tables :
  exists l, sort_dependencies inferred declared tables = Ok l.
Proof. apply sort_loop_terminates; [apply sort_dependencies_stuck_ok|apply mu_fuel]. Qed.

Theorem sort_covers inferred declared tables l :
  sort_dependencies inferred declared tables = Ok l -> forall t, In t l <-> In t tables.
Proof.
  intros H t. rewrite (sort_loop_elements _ _ (sort_dependencies_stuck_ok _ _) _ _ _ _ H). cbn [In]. tauto.
Qed.

Lemma add_new_In old new f : In f (add_new old new) <-> In f old \/ In f new.
Proof. apply (fold_oadd_In String.eqb String.eqb_eq). Qed.

Lemma add_new_NoDup old new : NoDup old -> NoDup (add_new old new).
Proof. apply (fold_oadd_NoDup String.eqb String.eqb_eq). Qed.

Fixpoint find_ti (t : string) (tis : list tinfo) : option tinfo :=
  match tis with
  | [] => None
  | ti :: r => if String.eqb (ti_name ti) t then Some ti else find_ti t r
  end.

Lemma find_ti_Some t tis ti : find_ti t tis = Some ti -> In ti tis /\ ti_name ti = t.
Proof.
  induction tis as [|x r IH]; cbn [find_ti In]; [discriminate|].
  destruct (String.eqb_spec (ti_name x) t) as [E|E].
  - intros [= <-]. auto.
  - intros H. destruct (IH H). auto.
Qed.

Lemma find_ti_In tis ti : NoDup (map ti_name tis) -> In ti tis -> find_ti (ti_name ti) tis = Some ti.
Proof.
  induction tis as [|x r IH]; cbn [map find_ti In]; [tauto|].
  intros Hnd [->|H]; [rewrite String.eqb_refl; reflexivity|].
  apply NoDup_cons_iff in Hnd. destruct Hnd as [Hx Hr].
  destruct (String.eqb_spec (ti_name x) (ti_name ti)) as [E|E]; [|auto].
  destruct Hx. rewrite E. apply in_map, H.
Qed.

(* TableInfo.register, seen from the table named [t] *)
Lemma register_find tp tis t :
  find_ti t (register tp tis) =
  if String.eqb (tp_table tp) t
  then Some (match find_ti t tis with
             | Some ti => mkTi (ti_name ti) (add_new (ti_fields ti) (visible_fields (tp_fields tp)))
                               (ti_keys ti ++ [norm_key (tp_key tp)])
             | None => mkTi (tp_table tp) (add_new [] (visible_fields (tp_fields tp)))
                            [norm_key (tp_key tp)]
             end)
  else find_ti t tis.
Proof.
  induction tis as [|ti r IH]; cbn [register find_ti ti_name]; [reflexivity|].
  destruct (String.eqb_spec (ti_name ti) (tp_table tp)) as [E|E]; cbn [find_ti ti_name].
  - rewrite <- E. destruct (String.eqb (ti_name ti) t); reflexivity.
  - rewrite IH. destruct (String.eqb_spec (ti_name ti) t) as [E2|E2]; [|reflexivity].
    rewrite (proj2 (String.eqb_neq _ _)) by congruence. reflexivity.
Qed.

Lemma register_names tp tis : map ti_name (register tp tis) = add_new (map ti_name tis) [tp_table tp].
Proof.
  unfold add_new, mem. cbn [fold_left]. induction tis as [|ti r IH]; cbn [register map existsb]; [reflexivity|].
  rewrite (String.eqb_sym (tp_table tp) (ti_name ti)).
  destruct (String.eqb (ti_name ti) (tp_table tp)); cbn [map ti_name orb]; [reflexivity|].
  rewrite IH. destruct (existsb _ _); reflexivity.
Qed.

Lemma all_tables_names tpls : map ti_name (all_tables tpls) = add_new [] (map tp_table tpls).
Proof.
  unfold all_tables. change (@nil string) with (map ti_name []). generalize (@nil tinfo).
  induction tpls as [|tp r IH]; intros acc; cbn [fold_left map]; [reflexivity|].
  rewrite IH, register_names. reflexivity.
Qed.

Definition tpls_of (t : string) (tpls : list ftpl) : list ftpl :=
  filter (fun tp => String.eqb (tp_table tp) t) tpls.
Definition fields_of (t : string) (tpls : list ftpl) : list string :=
  flat_map (fun tp => visible_fields (tp_fields tp)) (tpls_of t tpls).
Definition keys_of (t : string) (tpls : list ftpl) : list (option string) :=
  map (fun tp => norm_key (tp_key tp)) (tpls_of t tpls).

Lemma fields_of_In t tpls f :
  In f (fields_of t tpls) <->
  exists tp, In tp tpls /\ tp_table tp = t /\ In f (tp_fields tp) /\ hidden f = false.
Proof.
  unfold fields_of, tpls_of, visible_fields. rewrite in_flat_map. split.
  - intros (tp & H1 & H2). apply filter_In in H1, H2. destruct H1 as [H1 E], H2 as [H2 Hh].
    apply String.eqb_eq in E. apply negb_true_iff in Hh. exists tp. auto.
  - intros (tp & H1 & E & H2 & Hh). exists tp. split; apply filter_In; split; auto;
      [apply String.eqb_eq, E|apply negb_true_iff, Hh].
Qed.

Lemma keys_of_In t tpls k :
  In k (keys_of t tpls) <-> exists tp, In tp tpls /\ tp_table tp = t /\ norm_key (tp_key tp) = k.
Proof.
  unfold keys_of, tpls_of. rewrite in_map_iff. split.
  - intros (tp & Hk & H). apply filter_In in H. destruct H as [H E]. apply String.eqb_eq in E.
    exists tp. auto.
  - intros (tp & H & E & Hk). exists tp. split; [exact Hk|]. apply filter_In.
    split; [exact H|apply String.eqb_eq, E].
Qed.

Lemma fold_register_find t tpls : forall acc,
  find_ti t (fold_left (fun a tp => register tp a) tpls acc) =
  match find_ti t acc, tpls_of t tpls with
  | Some ti, _ => Some (mkTi (ti_name ti) (add_new (ti_fields ti) (fields_of t tpls))
                             (ti_keys ti ++ keys_of t tpls))
  | None, [] => None
  | None, _ => Some (mkTi t (add_new [] (fields_of t tpls)) (keys_of t tpls))
  end.
Proof.
  induction tpls as [|tp r IH]; intros acc; cbn [fold_left].
  - destruct (find_ti t acc) as [[n fs ks]|]; [|reflexivity].
    cbn [tpls_of filter fields_of flat_map keys_of map add_new fold_left ti_name ti_fields ti_keys].
    rewrite app_nil_r. reflexivity.
  - rewrite IH, register_find. unfold fields_of, keys_of, tpls_of. cbn [filter].
    destruct (String.eqb_spec (tp_table tp) t) as [E|E]; [|reflexivity].
    cbn [flat_map map]. unfold add_new.
    destruct (find_ti t acc) as [ti|]; cbn [ti_name ti_fields ti_keys]; rewrite fold_left_app.
    + rewrite <- app_assoc. reflexivity.
    + rewrite E. reflexivity.
Qed.

Lemma all_tables_member tpls ti :
  In ti (all_tables tpls) ->
  ti = mkTi (ti_name ti) (add_new [] (fields_of (ti_name ti) tpls)) (keys_of (ti_name ti) tpls).
Proof.
  intros Hin. apply find_ti_In in Hin; [|rewrite all_tables_names; apply add_new_NoDup; constructor].
  unfold all_tables in Hin. rewrite fold_register_find in Hin. cbn [find_ti] in Hin.
  destruct (tpls_of (ti_name ti) tpls); [discriminate|]. injection Hin as Hin. symmetry. exact Hin.
Qed.

Definition visible_tables (tpls : list ftpl) : list string := map ti_name (infer_tables tpls).

Lemma visible_tables_eq tpls :
  visible_tables tpls = filter (fun t => negb (hidden t)) (add_new [] (map tp_table tpls)).
Proof.
  unfold visible_tables, infer_tables. rewrite <- all_tables_names.
  apply (map_filter ti_name (fun t => negb (hidden t))).
Qed.

Lemma visible_tables_In tpls t :
  In t (visible_tables tpls) <-> exists tp, In tp tpls /\ tp_table tp = t /\ hidden t = false.
Proof.
  rewrite visible_tables_eq, filter_In, add_new_In, in_map_iff, negb_true_iff. cbn [In].
  split.
  - intros [[[]|(tp & Hn & Htp)] Hh]. exists tp. auto.
  - intros (tp & Htp & Hn & Hh). split; [right; exists tp; auto|assumption].
Qed.

Lemma visible_tables_NoDup tpls : NoDup (visible_tables tpls).
Proof. rewrite visible_tables_eq. apply NoDup_filter, add_new_NoDup. constructor. Qed.

(* a visible field of table t that the mapping has to list *)
Definition vfield (tpls : list ftpl) (t f : string) : Prop :=
  (exists tp, In tp tpls /\ tp_table tp = t /\ In f (tp_fields tp) /\ hidden f = false) /\
  ~ (t = "Account" /\ f = "PersonContactId").

Lemma remove_pc_names tis : map ti_name (remove_pc_field tis) = map ti_name tis.
Proof.
  unfold remove_pc_field. rewrite map_map. apply map_ext. intros ti.
  destruct (String.eqb (ti_name ti) "Account"); reflexivity.
Qed.

Lemma mapped_table_spec tpls ti :
  In ti (remove_pc_field (infer_tables tpls)) ->
  NoDup (ti_fields ti) /\
  (forall f, In f (ti_fields ti) <-> vfield tpls (ti_name ti) f) /\
  (forall k, In k (ti_keys ti) <->
             exists tp, In tp tpls /\ tp_table tp = ti_name ti /\ norm_key (tp_key tp) = k).
Proof.
  (* the two names play no part: as variables they keep the terms small *)
  unfold vfield, remove_pc_field. generalize "Account" "PersonContactId". intros acct pcid Hin.
  apply in_map_iff in Hin. destruct Hin as (ti0 & <- & Hin).
  apply filter_In in Hin. destruct Hin as [Hin _]. apply all_tables_member in Hin.
  set (t := ti_name ti0) in *. rewrite Hin. cbn [ti_name].
  assert (Hnd : NoDup (add_new [] (fields_of t tpls))) by (apply add_new_NoDup; constructor).
  destruct (String.eqb_spec t acct) as [E|E]; cbn [ti_name ti_fields ti_keys].
  - splits; [apply NoDup_filter, Hnd| |apply keys_of_In].
    intros f. rewrite filter_In, add_new_In, fields_of_In, negb_true_iff, String.eqb_neq. cbn [In]. tauto.
  - splits; [exact Hnd| |apply keys_of_In]. intros f. rewrite add_new_In, fields_of_In. cbn [In]. tauto.
Qed.

Lemma group_add_dict_set k v l :
  group_add k v l = dict_set k (match assoc_get k l with Some vs => vs ++ [v] | None => [v] end) l.
Proof.
  induction l as [|[k0 vs] r IH]; cbn [group_add dict_set assoc_get]; [reflexivity|].
  destruct (String.eqb_spec k k0) as [->|E]; [reflexivity|]. rewrite IH. reflexivity.
Qed.

Lemma inferred_of_tg ds t :
  tg_of (inferred_of ds) t = map d_to (filter (fun d => String.eqb (d_from d) t) ds).
Proof.
  unfold inferred_of. rewrite <- (app_nil_l (map _ _)). change (@nil string) with (tg_of [] t).
  generalize (@nil (string * list string)) as acc.
  induction ds as [|d r IH]; intros acc; cbn [fold_left filter map]; [symmetry; apply app_nil_r|].
  rewrite IH. unfold tg_of at 1. rewrite group_add_dict_set, assoc_get_dict_set, (String.eqb_sym t).
  destruct (String.eqb_spec (d_from d) t) as [<-|E]; [|reflexivity].
  unfold tg_of. cbn [map]. destruct (assoc_get (d_from d) acc); [rewrite <- app_assoc|]; reflexivity.
Qed.

Lemma ref_target_app ds d t f :
  ref_target (ds ++ [d]) t f =
  if (String.eqb (d_from d) t && String.eqb (d_field d) f)%bool then Some (d_to d) else ref_target ds t f.
Proof. unfold ref_target. rewrite fold_left_app. reflexivity. Qed.

Lemma ref_target_spec ds t f :
  match ref_target ds t f with
  | Some to => In (mkDep t to f) ds
  | None => forall d, In d ds -> ~ (d_from d = t /\ d_field d = f)
  end.
Proof.
  induction ds as [|d ds IH] using rev_ind; [intros d []|].
  rewrite ref_target_app. destruct (_ && _)%bool eqn:E.
  - apply andb_true_iff in E. rewrite !String.eqb_eq in E. destruct E as [<- <-].
    apply in_or_app. right. left. destruct d; reflexivity.
  - destruct (ref_target ds t f) as [to|]; [apply in_or_app; auto|].
    intros d' Hd'. apply in_app_or in Hd'. destruct Hd' as [Hd'|[<-|[]]]; [auto|].
    intros [<- <-]. rewrite !String.eqb_refl in E. discriminate.
Qed.

Lemma ref_target_Some ds t f to : ref_target ds t f = Some to -> In (mkDep t to f) ds.
Proof. intros H. pose proof (ref_target_spec ds t f) as S. rewrite H in S. exact S. Qed.

Lemma remove_pc_deps_In inf t x :
  In x (tg_of (remove_pc_deps inf) t) <->
  In x (tg_of inf t) /\ ~ (t = "Account" /\ lower x = "personcontact").
Proof.
  (* the two names play no part: as variables they keep the terms small *)
  unfold tg_of, remove_pc_deps. generalize "Account" "personcontact". intros acct pc.
  induction inf as [|[k vs] r IH]; cbn [map assoc_get fst snd]; [tauto|].
  destruct (String.eqb_spec k acct) as [Ea|Ea]; cbn [assoc_get fst snd];
    (destruct (String.eqb_spec t k) as [Et|Et]; [|exact IH]).
  - rewrite filter_In, negb_true_iff, String.eqb_neq. subst. tauto.
  - subst. tauto.
Qed.

(* the edges of the sorted graph, without load declarations: the loaded references, less
   Account -> PersonContact *)
Lemma sorted_tg_In ld t x :
  In x (tg_of (remove_pc_deps (inferred_of ld)) t) <->
  (exists d, In d ld /\ d_from d = t /\ d_to d = x) /\ ~ (t = "Account" /\ lower x = "personcontact").
Proof.
  rewrite remove_pc_deps_In. generalize (t = "Account" /\ lower x = "personcontact"). intros Q.
  rewrite inferred_of_tg, in_map_iff.
  split; intros [[d D] Hn]; (split; [exists d|exact Hn]); rewrite filter_In, String.eqb_eq in *; tauto.
Qed.

Lemma lstep_eqb_eq a b : lstep_eqb a b = true <-> a = b.
Proof.
  destruct a as [a1 a2 a3], b as [b1 b2 b3]. unfold lstep_eqb. cbn [ls_table ls_key ls_fields].
  rewrite !andb_true_iff, String.eqb_eq, (option_eqb_eq _ String.eqb_eq), (list_eqb_eq _ String.eqb_eq).
  split; [intros [[-> ->] ->]; reflexivity|intros [= -> -> ->]; auto].
Qed.

Lemma dedupe_steps_spec l :
  NoDup (dedupe_steps l) /\ forall s, In s (dedupe_steps l) <-> In s l.
Proof.
  split; [apply (fold_oadd_NoDup lstep_eqb lstep_eqb_eq); constructor|].
  intros s. etransitivity; [apply (fold_oadd_In lstep_eqb lstep_eqb_eq)|]. cbn [In]. tauto.
Qed.

Lemma raw_steps_In tis s :
  In s (raw_steps tis) <->
  exists ti k, In ti tis /\ In k (ti_keys ti) /\ s = mkLs (ti_name ti) k (ti_fields ti).
Proof.
  unfold raw_steps. rewrite in_flat_map. split.
  - intros (ti & H1 & H2). apply in_map_iff in H2. destruct H2 as (k & H2 & H3). exists ti, k. auto.
  - intros (ti & k & H1 & H2 & H3). exists ti. split; [assumption|]. apply in_map_iff. exists k. auto.
Qed.

Definition key_le (a b : nat * lstep) : Prop := fst a <= fst b.

Lemma insert_by_perm k s l : Permutation (insert_by k s l) ((k, s) :: l).
Proof.
  induction l as [|[k' s'] r IH]; cbn [insert_by]; [apply Permutation_refl|].
  destruct (Nat.leb k k'); [apply Permutation_refl|].
  eapply perm_trans; [apply perm_skip, IH|apply perm_swap].
Qed.

Lemma insert_by_sorted k s l : StronglySorted key_le l -> StronglySorted key_le (insert_by k s l).
Proof.
  induction 1 as [|[k' s'] r Hr IH Hall]; cbn [insert_by]; [repeat constructor|].
  destruct (Nat.leb_spec k k') as [E|E].
  - repeat constructor; [assumption..|]. eapply Forall_impl; [|exact Hall].
    intros ks. apply (Nat.le_trans _ _ _ E).
  - constructor; [assumption|]. apply (Permutation_Forall (Permutation_sym (insert_by_perm k s r))).
    constructor; [apply Nat.lt_le_incl, E|assumption].
Qed.

Lemma sort_keyed_spec l : Permutation (sort_keyed l) l /\ StronglySorted key_le (sort_keyed l).
Proof.
  unfold sort_keyed. induction l as [|[k s] r [IH1 IH2]]; cbn [fold_right fst snd]; [split; constructor|].
  split; [|apply insert_by_sorted, IH2].
  eapply perm_trans; [apply insert_by_perm|apply perm_skip, IH1].
Qed.

Lemma sorted_app_le l1 : forall x l2 y,
  StronglySorted key_le (l1 ++ x :: l2) -> In y l2 -> key_le x y.
Proof.
  induction l1 as [|a r IH]; intros x l2 y H Hy; cbn [app] in H; apply StronglySorted_inv in H;
    destruct H as [Hs Hall]; [|eauto].
  rewrite Forall_forall in Hall. apply Hall, Hy.
Qed.

Lemma key_step_Ok order s ks :
  key_step order s = Ok ks -> snd ks = s /\ index_of (ls_table s) order = Some (fst ks).
Proof.
  unfold key_step. destruct (index_of (ls_table s) order); [|discriminate]. intros [= <-]. auto.
Qed.

Lemma load_steps_inv tis order steps :
  load_steps tis order = Ok steps ->
  exists keyed, map snd keyed = dedupe_steps (raw_steps tis) /\
                (forall ks, In ks keyed -> index_of (ls_table (snd ks)) order = Some (fst ks)) /\
                steps = map snd (sort_keyed keyed).
Proof.
  unfold load_steps. destruct (mapM _ _) as [keyed|e] eqn:E; [|discriminate]. intros [= <-].
  apply mapM_Forall2 in E. exists keyed. splits; [| |reflexivity].
  - rewrite <- (map_id (dedupe_steps _)). symmetry. apply (Forall2_map_eq _ _ _ _ _ E).
    intros s ks Hs. symmetry. apply (key_step_Ok _ _ _ Hs).
  - intros ks Hks. destruct (Forall2_In_r _ _ _ _ E Hks) as (s & _ & Hs).
    apply key_step_Ok in Hs. destruct Hs as [<- Hs]. exact Hs.
Qed.

Lemma load_steps_spec tis order steps :
  load_steps tis order = Ok steps -> NoDup steps /\ forall s, In s steps <-> In s (raw_steps tis).
Proof.
  intros H. destruct (load_steps_inv _ _ _ H) as (keyed & Hk & _ & ->).
  assert (P : Permutation (map snd (sort_keyed keyed)) (dedupe_steps (raw_steps tis)))
    by (rewrite <- Hk; apply Permutation_map, sort_keyed_spec).
  destruct (dedupe_steps_spec (raw_steps tis)) as [H1 H2]. split.
  - apply (Permutation_NoDup (Permutation_sym P)), H1.
  - intros s. rewrite <- H2. split; apply Permutation_in; [|symmetry]; exact P.
Qed.

Lemma load_steps_ok tis order :
  (forall ti, In ti tis -> In (ti_name ti) order) -> exists steps, load_steps tis order = Ok steps.
Proof.
  intros H. unfold load_steps.
  destruct (mapM_ok (key_step order) (dedupe_steps (raw_steps tis))) as [keyed ->]; [|eexists; reflexivity].
  intros s Hs. apply dedupe_steps_spec, raw_steps_In in Hs. destruct Hs as (ti & k & H1 & _ & ->).
  unfold key_step. cbn [ls_table]. destruct (index_of_In _ _ (H ti H1)) as (i & -> & _). eexists; reflexivity.
Qed.

Lemma load_steps_sorted tis order steps spre s spost sj :
  load_steps tis order = Ok steps -> steps = spre ++ s :: spost -> In sj spost ->
  exists i j, index_of (ls_table s) order = Some i /\ index_of (ls_table sj) order = Some j /\ i <= j.
Proof.
  intros H Heq Hj. destruct (load_steps_inv _ _ _ H) as (keyed & _ & Hkey & Hs). rewrite Heq in Hs.
  symmetry in Hs. apply map_eq_app in Hs. destruct Hs as (kpre & krest & Hsk & _ & Hr).
  apply map_eq_cons in Hr. destruct Hr as (ks & kpost & -> & <- & <-).
  apply in_map_iff in Hj. destruct Hj as (ksj & <- & Hj).
  destruct (sort_keyed_spec keyed) as [Hperm Hsorted]. rewrite Hsk in Hsorted, Hperm.
  exists (fst ks), (fst ksj). splits.
  - apply Hkey, (Permutation_in _ Hperm), in_or_app. right. left. reflexivity.
  - apply Hkey, (Permutation_in _ Hperm), in_or_app. right. right. exact Hj.
  - apply (sorted_app_le _ _ _ _ Hsorted Hj).
Qed.

Definition load_key (s : lstep) : string * option string := (ls_table s, ls_key s).

(* all that the theorems use of the tables of a recipe *)
Lemma mapped_steps_spec tpls order steps :
  load_steps (remove_pc_field (infer_tables tpls)) order = Ok steps ->
  NoDup (map load_key steps) /\
  (forall t k, In (t, k) (map load_key steps) <->
               exists tp, In tp tpls /\ hidden (tp_table tp) = false /\
                          tp_table tp = t /\ norm_key (tp_key tp) = k) /\
  (forall s, In s steps ->
     In (ls_table s) (visible_tables tpls) /\ NoDup (ls_fields s) /\
     forall f, In f (ls_fields s) <-> vfield tpls (ls_table s) f).
Proof.
  intros H. destruct (load_steps_spec _ _ _ H) as [Hnd Hin].
  set (tis := remove_pc_field (infer_tables tpls)) in *.
  assert (Hnames : map ti_name tis = visible_tables tpls) by apply remove_pc_names.
  assert (Hvis : forall ti, In ti tis -> In (ti_name ti) (visible_tables tpls))
    by (intros ti Hti; rewrite <- Hnames; apply in_map, Hti).
  splits.
  - apply NoDup_map_inj_in; [exact Hnd|]. intros x y Hx Hy [= Ht Hk]. apply Hin, raw_steps_In in Hx, Hy.
    destruct Hx as (ti1 & k1 & A1 & _ & ->), Hy as (ti2 & k2 & B1 & _ & ->). cbn [ls_table ls_key] in *.
    (* table names are distinct, so the two steps come from the same table *)
    pose proof (visible_tables_NoDup tpls) as N. rewrite <- Hnames in N.
    apply (find_ti_In _ _ N) in A1, B1. rewrite Ht, B1 in A1. injection A1 as <-. rewrite Hk. reflexivity.
  - intros t k. rewrite in_map_iff. split.
    + intros (s & [= <- <-] & Hs). apply Hin, raw_steps_In in Hs. destruct Hs as (ti & k & A1 & A2 & ->).
      cbn [ls_table ls_key]. apply (mapped_table_spec tpls ti A1) in A2. destruct A2 as (tp & P1 & P2 & P3).
      apply Hvis, visible_tables_In in A1. destruct A1 as (_ & _ & _ & Hh).
      exists tp. rewrite P2. auto.
    + intros (tp & P1 & P2 & <- & <-).
      assert (Hv : In (tp_table tp) (visible_tables tpls)) by (apply visible_tables_In; exists tp; auto).
      rewrite <- Hnames in Hv. apply in_map_iff in Hv. destruct Hv as (ti & A2 & A1).
      exists (mkLs (ti_name ti) (norm_key (tp_key tp)) (ti_fields ti)). cbn [ls_table ls_key].
      split; [rewrite A2; reflexivity|]. apply Hin, raw_steps_In. exists ti, (norm_key (tp_key tp)).
      splits; [assumption| |reflexivity]. apply (mapped_table_spec tpls ti A1). exists tp. auto.
  - intros s Hs. apply Hin, raw_steps_In in Hs. destruct Hs as (ti & k & A1 & _ & ->). cbn [ls_table ls_fields].
    destruct (mapped_table_spec tpls ti A1) as (V1 & V2 & _). auto.
Qed.

Lemma is_rt_RecordTypeId : is_rt "RecordTypeId" = true.
Proof. reflexivity. Qed.

Lemma find_rt_Some fs c : find_rt fs = Ok (Some c) -> filter is_rt fs = [c].
Proof.
  unfold find_rt. destruct (filter is_rt fs) as [|x [|y r]]; intros [= <-]. reflexivity.
Qed.

Lemma find_rt_None fs : find_rt fs = Ok None -> filter is_rt fs = [].
Proof.
  unfold find_rt. destruct (filter is_rt fs) as [|x [|y r]]; intros [= ]. reflexivity.
Qed.

Lemma find_rt_ok fs :
  NoDup fs -> (forall f1 f2, In f1 fs -> In f2 fs -> is_rt f1 = true -> is_rt f2 = true -> f1 = f2) ->
  exists rt, find_rt fs = Ok rt.
Proof.
  intros Hnd Huniq. unfold find_rt. apply (NoDup_filter is_rt) in Hnd.
  destruct (filter is_rt fs) as [|a [|b r]] eqn:E; [eexists; reflexivity..|]. exfalso.
  assert (Ha : In a (filter is_rt fs)) by (rewrite E; left; reflexivity).
  assert (Hb : In b (filter is_rt fs)) by (rewrite E; right; left; reflexivity).
  apply filter_In in Ha, Hb. apply NoDup_cons_iff in Hnd. apply (proj1 Hnd). left. apply Huniq; tauto.
Qed.

Lemma append_space_split t1 : forall t2 r1 r2,
  has_space t1 = false -> has_space t2 = false ->
  String.append t1 (String " " r1) = String.append t2 (String " " r2) -> t1 = t2 /\ r1 = r2.
Proof.
  induction t1 as [|c1 t1 IH]; intros [|c2 t2] r1 r2 H1 H2 H; cbn [String.append has_space] in *.
  - injection H as ->. auto.
  - injection H as <- _. rewrite Ascii.eqb_refl in H2. discriminate.
  - injection H as -> _. rewrite Ascii.eqb_refl in H1. discriminate.
  - injection H as -> H. destruct (Ascii.eqb c2 " "); [discriminate|].
    destruct (IH _ _ _ H1 H2 H) as [-> ->]. auto.
Qed.

(* "Insert T" / "Upsert T on K" determine T and K when T has no space *)
Lemma step_name_inj t1 k1 t2 k2 :
  has_space t1 = false -> has_space t2 = false ->
  step_name t1 k1 = step_name t2 k2 -> t1 = t2 /\ k1 = k2.
Proof.
  intros H1 H2 H. destruct k1 as [k1|], k2 as [k2|]; cbn [step_name String.append] in H;
    try discriminate H.
  - injection H as H. change (String.append " on " ?k) with (String " " (String.append "on " k)) in H.
    destruct (append_space_split _ _ _ _ H1 H2 H) as [-> Hk]. cbn [String.append] in Hk.
    injection Hk as ->. auto.
  - injection H as ->. auto.
Qed.

Definition lookups_of (loadable : list dep) (t : string) (fs : list string) : list lookup :=
  flat_map (fun f => match ref_target loadable t f with
                     | Some to => [mkLk f to None]
                     | None => []
                     end) fs.

Lemma lookups_of_In ld t fs l :
  In l (lookups_of ld t fs) <->
  In (lk_field l) fs /\ ref_target ld t (lk_field l) = Some (lk_table l) /\ lk_after l = None.
Proof.
  unfold lookups_of. rewrite in_flat_map. split.
  - intros (f & H1 & H2). destruct (ref_target ld t f) as [to|] eqn:E; [|destruct H2].
    destruct H2 as [<-|[]]. cbn [lk_field lk_table lk_after]. auto.
  - intros (H1 & H2 & H3). exists (lk_field l). split; [assumption|]. rewrite H2.
    left. destruct l as [f0 to0 a0]; cbn [lk_field lk_table lk_after] in *. subst a0. reflexivity.
Qed.

Lemma lookups_of_fields ld t fs :
  map lk_field (lookups_of ld t fs) = filter (fun f => is_some (ref_target ld t f)) fs.
Proof.
  unfold lookups_of. induction fs as [|f r IH]; cbn [flat_map filter map]; [reflexivity|].
  rewrite map_app, IH. destruct (ref_target ld t f); reflexivity.
Qed.

Definition same_lookups (a b : list lookup) : Prop :=
  Forall2 (fun l l' => lk_field l' = lk_field l /\ lk_table l' = lk_table l) a b.

Lemma same_lookups_fields a b : same_lookups a b -> map lk_field b = map lk_field a.
Proof. intros H. symmetry. apply (Forall2_map_eq _ _ _ _ _ H). intros l l' [H1 _]. auto. Qed.

Definition plain_of (loadable : list dep) (t : string) (rt : option string) (fs : list string) :=
  filter (fun f => negb (is_some (ref_target loadable t f))
                   && negb (option_eqb String.eqb (Some f) rt))%bool fs.

Definition fields_of_step (loadable : list dep) (t : string) (rt : option string) (fs : list string) :=
  match rt with
  | Some c => dict_set "RecordTypeId" c (map (fun f => (f, f)) (plain_of loadable t rt fs))
  | None => map (fun f => (f, f)) (plain_of loadable t rt fs)
  end.

Lemma fields_of_step_cols ld t rt fs :
  find_rt fs = Ok rt ->
  map snd (fields_of_step ld t rt fs) =
  plain_of ld t rt fs ++ (match rt with Some c => [c] | None => [] end).
Proof.
  assert (Hid : forall l : list string, map snd (map (fun f => (f, f)) l) = l /\
                                         map fst (map (fun f => (f, f)) l) = l)
    by (intros l; rewrite !map_map; cbn [fst snd]; rewrite map_id; auto).
  intros Hrt. unfold fields_of_step. destruct rt as [c|]; [|rewrite app_nil_r; apply Hid].
  rewrite dict_set_notin, map_app; [rewrite (proj1 (Hid _)); reflexivity|].
  (* a field named RecordTypeId is the record-type column itself, which is not a plain field *)
  rewrite (proj2 (Hid _)). intros Hin. apply filter_In in Hin. destruct Hin as [Hin Hp].
  assert (Hf : In "RecordTypeId" (filter is_rt fs))
    by (apply filter_In; split; [assumption|apply is_rt_RecordTypeId]).
  rewrite (find_rt_Some _ _ Hrt) in Hf. destruct Hf as [->|[]].
  cbn [option_eqb] in Hp. rewrite String.eqb_refl, andb_false_r in Hp. discriminate.
Qed.

Lemma fields_of_step_facts ld t rt fs :
  NoDup fs -> find_rt fs = Ok rt ->
  NoDup (map snd (fields_of_step ld t rt fs)) /\
  (forall f, In f (map snd (fields_of_step ld t rt fs)) ->
             In f fs /\ (ref_target ld t f = None \/ is_rt f = true)) /\
  (forall f, In f fs -> ref_target ld t f = None -> In f (map snd (fields_of_step ld t rt fs))).
Proof.
  intros Hnd Hrt. rewrite (fields_of_step_cols _ _ _ _ Hrt).
  assert (Hplain : forall f, In f (plain_of ld t rt fs) <->
                             In f fs /\ ref_target ld t f = None /\ Some f <> rt).
  { intros f. unfold plain_of. rewrite filter_In. apply and_iff_compat_l.
    destruct (ref_target ld t f); cbn [is_some negb andb]; [split; [discriminate|intros [[=] _]]|].
    rewrite negb_true_iff, <- not_true_iff_false, (option_eqb_eq _ String.eqb_eq). tauto. }
  assert (Hc : forall c, rt = Some c -> In c fs /\ is_rt c = true).
  { intros c ->. apply filter_In. rewrite (find_rt_Some _ _ Hrt). left. reflexivity. }
  splits.
  - destruct rt as [c|]; [|rewrite app_nil_r; apply NoDup_filter, Hnd].
    apply (Permutation_NoDup (Permutation_cons_append _ c)). constructor; [|apply NoDup_filter, Hnd].
    intros Hin. apply Hplain in Hin. tauto.
  - intros f Hf. apply in_app_or in Hf. destruct Hf as [Hf|Hf]; [apply Hplain in Hf; tauto|].
    destruct rt as [c|]; [|destruct Hf]. destruct Hf as [<-|[]]. destruct (Hc c eq_refl). auto.
  - intros f Hf Hr. apply in_or_app.
    destruct rt as [c|]; [|left; apply Hplain; splits; [..|discriminate]; assumption].
    destruct (string_dec f c) as [->|Hne]; [right; left; reflexivity|].
    left. apply Hplain. splits; [assumption..|congruence].
Qed.

(* what a mapping step has from the load step it is made of; its lookups are those of the load
   step up to [R]: equal when step_body has made it, the same but for `after` at the end *)
Definition made_from (R : list lookup -> list lookup -> Prop) (loadable : list dep) (s : lstep)
           (nm : string * mstep) : Prop :=
  fst nm = step_name (ls_table s) (ls_key s) /\
  m_table (snd nm) = ls_table s /\ m_update_key (snd nm) = ls_key s /\
  m_sf_object (snd nm) = (if String.eqb (ls_table s) "PersonContact" then "Contact" else ls_table s) /\
  R (lookups_of loadable (ls_table s) (ls_fields s)) (m_lookups (snd nm)) /\
  exists rt, find_rt (ls_fields s) = Ok rt /\
             m_fields (snd nm) = fields_of_step loadable (ls_table s) rt (ls_fields s).

(* stated on the result, not as an inversion: the step is a large term, and this way it is never
   substituted into the six facts *)
Lemma step_body_spec steps loadable decls s :
  match step_body steps loadable decls s with
  | Ok nm => made_from eq loadable s nm
  | Err _ => forall rt, find_rt (ls_fields s) <> Ok rt
  end.
Proof.
  unfold step_body. destruct (find_rt (ls_fields s)) as [rt|e] eqn:Ert; cbn [bind]; [|discriminate].
  (* the six facts are about what the two forms of step share: proved once, the key not yet split,
     since every tactic on the unfolded body is slow *)
  assert (G : forall extras action filters, made_from eq loadable s
     (step_name (ls_table s) (ls_key s),
      mkStep (if String.eqb (ls_table s) "PersonContact" then "Contact" else ls_table s) (ls_table s)
             (fields_of_step loadable (ls_table s) rt (ls_fields s))
             (lookups_of loadable (ls_table s) (ls_fields s)) extras action (ls_key s) filters)).
  { intros extras action filters. unfold made_from.
    cbn [fst snd m_table m_update_key m_sf_object m_lookups m_fields]. splits; try reflexivity.
    exists rt. auto. }
  destruct (ls_key s); apply G.
Qed.

Lemma named_made_from steps ld decls named :
  mapM (step_body steps ld decls) steps = Ok named -> Forall2 (made_from eq ld) steps named.
Proof.
  intros H. apply mapM_Forall2 in H. revert H. apply Forall2_weaken. intros s nm Hb.
  pose proof (step_body_spec steps ld decls s) as S. rewrite Hb in S. exact S.
Qed.

Lemma made_from_lookup ld s nm :
  made_from same_lookups ld s nm -> forall l, In l (m_lookups (snd nm)) ->
  In (lk_field l) (ls_fields s) /\ ref_target ld (m_table (snd nm)) (lk_field l) = Some (lk_table l).
Proof.
  intros (_ & R2 & _ & _ & R5 & _) l Hl. destruct (Forall2_In_r _ _ _ _ R5 Hl) as (l0 & L1 & -> & ->).
  apply lookups_of_In in L1. rewrite R2. tauto.
Qed.

Definition step_key (nm : string * mstep) : string * option string :=
  (m_table (snd nm), m_update_key (snd nm)).

Lemma made_from_keys R ld steps ms :
  Forall2 (made_from R ld) steps ms -> map step_key ms = map load_key steps.
Proof.
  intros H. symmetry. apply (Forall2_map_eq _ _ _ _ _ H).
  intros s nm (_ & R2 & R3 & _). unfold step_key, load_key. congruence.
Qed.

Fixpoint first_pos (so : string) (ms : list (string * mstep)) : option nat :=
  match ms with
  | [] => None
  | (_, m) :: r => if String.eqb (m_table m) so then Some 0 else option_map S (first_pos so r)
  end.

Fixpoint last_name (so : string) (ms : list (string * mstep)) : option string :=
  match ms with
  | [] => None
  | (n, m) :: r => match last_name so r with
                   | Some x => Some x
                   | None => if String.eqb (m_table m) so then Some n else None
                   end
  end.

Lemma last_first_None so ms : last_name so ms = None <-> first_pos so ms = None.
Proof.
  induction ms as [|[n m] r IH]; cbn [last_name first_pos]; [tauto|].
  destruct (String.eqb (m_table m) so), (last_name so r), (first_pos so r); cbn [option_map];
    split; intros H; try discriminate H; try reflexivity.
  - apply IH in H. discriminate.
  - destruct IH as [IH _]. discriminate (IH eq_refl).
Qed.

Lemma last_name_None so ms :
  last_name so ms = None <-> forall nm, In nm ms -> m_table (snd nm) <> so.
Proof.
  induction ms as [|[n0 m0] r IH]; cbn [last_name In]; [split; [intros _ nm []|reflexivity]|].
  destruct (last_name so r).
  - split; [discriminate|]. intros H. destruct IH as [_ IH]. discriminate IH. auto.
  - destruct (String.eqb_spec (m_table m0) so) as [E|E]; split; try discriminate; try reflexivity.
    + intros H. destruct (H (n0, m0)); auto.
    + intros _ nm [<-|Hnm]; [exact E|]. apply IH; auto.
Qed.

Lemma unique_first_last so ms pre n m post fi ln :
  ms = pre ++ (n, m) :: post -> m_table m = so ->
  (forall nm, In nm pre \/ In nm post -> m_table (snd nm) <> so) ->
  first_pos so ms = Some fi -> last_name so ms = Some ln -> fi = length pre /\ ln = n.
Proof.
  intros -> Hso Hothers.
  assert (Hpost : last_name so post = None) by (apply last_name_None; auto).
  assert (E : first_pos so (pre ++ (n, m) :: post) = Some (length pre) /\
              last_name so (pre ++ (n, m) :: post) = Some n).
  { induction pre as [|[n0 m0] r IH]; cbn [app first_pos last_name length].
    - rewrite Hso, String.eqb_refl, Hpost. auto.
    - destruct IH as [-> ->]; [intros nm [Hnm|Hnm]; apply Hothers; [left; right|right]; exact Hnm|].
      rewrite (proj2 (String.eqb_neq _ _)); [auto|]. apply (Hothers (n0, m0)). left. left. reflexivity. }
  destruct E as [-> ->]. intros [= <-] [= <-]. auto.
Qed.

(* the index maps a table to the position of its first step (counted from [idx]; an entry of
   [acc] takes precedence) and the name of its last step *)
Lemma index_by_sobject_spec so : forall ms idx acc,
  assoc_get so (index_by_sobject idx ms acc) =
  match last_name so ms with
  | None => assoc_get so acc
  | Some ln => Some (match assoc_get so acc with
                     | Some (fi, _) => fi
                     | None => idx + match first_pos so ms with Some p => p | None => 0 end
                     end, ln)
  end.
Proof.
  induction ms as [|[n m] r IH]; intros idx acc; cbn [index_by_sobject last_name first_pos]; [reflexivity|].
  rewrite IH. clear IH.
  assert (Hacc : assoc_get so (match assoc_get (m_table m) acc with
                               | Some (fi, _) => dict_set (m_table m) (fi, n) acc
                               | None => dict_set (m_table m) (idx, n) acc
                               end) =
                 if String.eqb so (m_table m)
                 then Some (match assoc_get so acc with Some (fi, _) => fi | None => idx end, n)
                 else assoc_get so acc).
  { destruct (assoc_get (m_table m) acc) as [[fi ln0]|] eqn:Ea; rewrite assoc_get_dict_set;
      (destruct (String.eqb_spec so (m_table m)) as [->|E]; [rewrite Ea|]; reflexivity). }
  rewrite Hacc, (String.eqb_sym (m_table m) so). destruct (String.eqb so (m_table m)).
  - rewrite Nat.add_0_r. destruct (last_name so r), (assoc_get so acc) as [[fi ?]|]; reflexivity.
  - destruct (last_name so r) as [ln|] eqn:El; [|reflexivity].
    destruct (first_pos so r) as [p|] eqn:Ep; [|apply last_first_None in Ep; congruence].
    cbn [option_map]. rewrite Nat.add_succ_comm. reflexivity.
Qed.

Lemma after_lookup_same index idx l l' :
  after_lookup index idx l = Ok l' -> lk_field l' = lk_field l /\ lk_table l' = lk_table l.
Proof.
  unfold after_lookup. destruct (String.eqb (lk_table l) "PersonContact"); [intros [= <-]; auto|].
  destruct (assoc_get (lk_table l) index) as [[fi ln]|]; [|discriminate].
  destruct (Nat.leb idx fi); [destruct (lk_after l)|]; intros [= <-]; auto.
Qed.

(* add_after_statements rewrites the lookups of a step and nothing else *)
Definition with_lookups (m : mstep) (lks : list lookup) : mstep :=
  mkStep (m_sf_object m) (m_table m) (m_fields m) lks (m_extras m) (m_action m) (m_update_key m)
         (m_filters m).

Definition same_but_after (a b : string * mstep) : Prop :=
  exists lks, same_lookups (m_lookups (snd a)) lks /\ b = (fst a, with_lookups (snd a) lks).

Lemma add_after_from_same index : forall ms idx ms',
  add_after_from index idx ms = Ok ms' -> Forall2 same_but_after ms ms'.
Proof.
  induction ms as [|[n m] r IH]; intros idx ms' H; cbn [add_after_from] in H; [injection H as <-; constructor|].
  destruct (mapM _ (m_lookups m)) as [lks|e] eqn:E; [|discriminate].
  destruct (add_after_from index (S idx) r) as [rest|e] eqn:Er; [|discriminate].
  injection H as <-. constructor; [|apply (IH _ _ Er)].
  exists lks. split; [|reflexivity]. apply mapM_Forall2 in E. revert E. apply Forall2_weaken, after_lookup_same.
Qed.

Lemma same_first_last so ms ms' :
  Forall2 same_but_after ms ms' ->
  first_pos so ms' = first_pos so ms /\ last_name so ms' = last_name so ms.
Proof.
  induction 1 as [|[n m] ? r r' (lks & _ & ->) Hr [IH1 IH2]]; cbn [first_pos last_name fst snd]; [auto|].
  rewrite IH1, IH2. auto.
Qed.

Lemma add_after_from_at index : forall ms idx ms' pre' name m' post',
  add_after_from index idx ms = Ok ms' -> ms' = pre' ++ (name, m') :: post' ->
  exists m, In (name, m) ms /\
            mapM (after_lookup index (idx + length pre')) (m_lookups m) = Ok (m_lookups m').
Proof.
  induction ms as [|[n m] r IH]; intros idx ms' pre' name m' post' H Heq; cbn [add_after_from] in H.
  - injection H as <-. destruct pre'; discriminate.
  - destruct (mapM _ (m_lookups m)) as [lks|e] eqn:E; [|discriminate].
    destruct (add_after_from index (S idx) r) as [rest|e] eqn:Er; [|discriminate].
    injection H as <-. destruct pre' as [|p pre'']; cbn [app length] in *.
    + injection Heq as <- <- _. exists m. rewrite Nat.add_0_r. split; [left; reflexivity|exact E].
    + injection Heq as _ Htl. destruct (IH _ _ _ _ _ _ Er Htl) as (m0 & H1 & H2).
      exists m0. rewrite Nat.add_succ_r. split; [right; exact H1|exact H2].
Qed.

Theorem after_rule_general ms ms' pre name m post l :
  (forall n0 m0 l0, In (n0, m0) ms -> In l0 (m_lookups m0) -> lk_after l0 = None) ->
  add_after_statements ms = Ok ms' -> ms' = pre ++ (name, m) :: post ->
  In l (m_lookups m) -> lk_table l <> "PersonContact" ->
  exists fi ln, first_pos (lk_table l) ms' = Some fi /\ last_name (lk_table l) ms' = Some ln /\
                (fi < length pre \/ lk_after l = Some ln).
Proof.
  unfold add_after_statements. intros Hnone H Heq Hl Hpc.
  destruct (same_first_last (lk_table l) _ _ (add_after_from_same _ _ _ _ H)) as [-> ->].
  destruct (add_after_from_at _ _ _ _ _ _ _ _ H Heq) as (m0 & Hm0 & Hm). cbn [Nat.add] in Hm.
  destruct (Forall2_In_r _ _ _ _ (mapM_Forall2 _ _ _ Hm) Hl) as (l0 & Hl0in & Hl0).
  pose proof (Hnone _ _ _ Hm0 Hl0in) as Hno.
  destruct (after_lookup_same _ _ _ _ Hl0) as [_ Ht]. rewrite Ht in *.
  unfold after_lookup in Hl0. rewrite (proj2 (String.eqb_neq _ _) Hpc), index_by_sobject_spec in Hl0.
  cbn [assoc_get Nat.add] in Hl0.
  destruct (last_name (lk_table l0) ms) as [ln|] eqn:El; [|discriminate].
  destruct (first_pos (lk_table l0) ms) as [p|] eqn:Ep; [|apply last_first_None in Ep; congruence].
  exists p, ln. splits; [reflexivity..|].
  destruct (Nat.leb_spec (length pre) p) as [E|E]; [right|left; exact E].
  rewrite Hno in Hl0. injection Hl0 as <-. reflexivity.
Qed.

Lemma add_after_from_ok index : forall ms idx,
  (forall n m l, In (n, m) ms -> In l (m_lookups m) ->
                 lk_table l = "PersonContact" \/ assoc_get (lk_table l) index <> None) ->
  exists ms', add_after_from index idx ms = Ok ms'.
Proof.
  induction ms as [|[n m] r IH]; intros idx H; cbn [add_after_from]; [eexists; reflexivity|].
  destruct (mapM_ok (after_lookup index idx) (m_lookups m)) as [lks ->].
  - intros l Hl. unfold after_lookup. destruct (H n m l (or_introl eq_refl) Hl) as [Hp|Hp].
    + rewrite Hp, String.eqb_refl. eexists; reflexivity.
    + destruct (String.eqb (lk_table l) "PersonContact"); [eexists; reflexivity|].
      destruct (assoc_get (lk_table l) index) as [[fi ln]|]; [|congruence].
      destruct (Nat.leb idx fi); [destruct (lk_after l)|]; eexists; reflexivity.
  - destruct (IH (S idx)) as [rest ->]; [|eexists; reflexivity].
    intros n0 m0 l0 H1. apply (H n0 m0 l0). right. exact H1.
Qed.

(* a reference (t.f -> to) recorded at run time whose target table is loaded *)
Definition observed (tpls : list ftpl) (deps : list dep) (t f to : string) : Prop :=
  In (mkDep t to f) deps /\ (In to (visible_tables tpls) \/ to = "PersonContact").

Section Pipeline.
Variable tpls : list ftpl.
Variable deps : list dep.
Variable decls : list decl.

Let loadable := loadable_deps (visible_tables tpls) deps.
Let tis' := remove_pc_field (infer_tables tpls).
Let dmap := map (fun d => (dc_object d, d)) decls.

Lemma loadable_In d :
  In d loadable <-> In d deps /\ (In (d_to d) (visible_tables tpls) \/ d_to d = "PersonContact").
Proof.
  unfold loadable, loadable_deps. generalize "PersonContact". intros pc.
  rewrite filter_In, orb_true_iff, mem_In, String.eqb_eq. reflexivity.
Qed.

Lemma ref_target_observed t f to : ref_target loadable t f = Some to -> observed tpls deps t f to.
Proof. intros H. apply ref_target_Some, loadable_In in H. exact H. Qed.

Lemma ref_target_None_observed t f :
  ref_target loadable t f = None <-> forall to, ~ observed tpls deps t f to.
Proof.
  pose proof (ref_target_spec loadable t f) as S. destruct (ref_target loadable t f) as [to|].
  - split; [discriminate|]. intros H. destruct (H to). apply loadable_In in S. exact S.
  - split; [|reflexivity]. intros _ to Ho.
    apply (S (mkDep t to f)); [apply loadable_In, Ho|cbn [d_from d_field]; auto].
Qed.

Lemma observed_ref_target t f to :
  observed tpls deps t f to -> is_some (ref_target loadable t f) = true.
Proof.
  intros H. destruct (ref_target loadable t f) eqn:E; [reflexivity|].
  destruct (proj1 (ref_target_None_observed t f) E to H).
Qed.

Lemma mapping_inv ms :
  mapping_from_recipe tpls deps decls = Ok ms ->
  exists order steps named,
    sort_dependencies (remove_pc_deps (inferred_of loadable)) (declared_of decls) (visible_tables tpls)
      = Ok order /\
    load_steps tis' order = Ok steps /\
    mapM (step_body steps loadable dmap) steps = Ok named /\
    add_after_statements (fold_left (fun acc nm => dict_set (fst nm) (snd nm) acc) named []) = Ok ms.
Proof.
  unfold mapping_from_recipe. fold (visible_tables tpls). fold loadable. fold tis'. fold dmap.
  destruct (sort_dependencies _ _ _) as [order|e] eqn:E1; cbn [bind]; [|discriminate].
  destruct (load_steps tis' order) as [steps|e] eqn:E2; cbn [bind]; [|discriminate].
  unfold mappings_from_load_steps. destruct (mapM _ steps) as [named|e] eqn:E3; cbn [bind]; [|discriminate].
  intros H. exists order, steps, named. auto.
Qed.

Lemma mapping_after ms :
  mapping_from_recipe tpls deps decls = Ok ms ->
  exists ms0, (forall n m l, In (n, m) ms0 -> In l (m_lookups m) -> lk_after l = None) /\
              add_after_statements ms0 = Ok ms.
Proof.
  intros H. destruct (mapping_inv _ H) as (order & steps & named & _ & _ & H3 & H4).
  eexists. split; [|exact H4]. intros n m l Hnm Hl.
  apply fold_dict_set_In in Hnm. destruct Hnm as [[]|Hnm].
  destruct (Forall2_In_r _ _ _ _ (named_made_from _ _ _ _ H3) Hnm) as (s & _ & _ & _ & _ & _ & B5 & _).
  cbn [snd] in B5. rewrite <- B5 in Hl. apply lookups_of_In in Hl. apply Hl.
Qed.

Hypothesis Hnospace : forall tp, In tp tpls -> has_space (tp_table tp) = false.

(* step names are distinct, so building the dict of named steps changes nothing *)
Lemma named_is_dict R steps order named :
  load_steps tis' order = Ok steps -> Forall2 (made_from R loadable) steps named ->
  fold_left (fun acc nm => dict_set (fst nm) (snd nm) acc) named [] = named.
Proof.
  intros Hs Hn. apply fold_dict_set_nodup. cbn [app].
  rewrite <- (Forall2_map_eq _ (fun s => step_name (ls_table s) (ls_key s)) fst _ _ Hn)
    by (intros s nm H; symmetry; apply H).
  destruct (mapped_steps_spec _ _ _ Hs) as (Hnd & Hkeys & _).
  rewrite <- (map_map load_key (fun tk => step_name (fst tk) (snd tk))).
  apply NoDup_map_inj_in; [exact Hnd|].
  assert (Hsp : forall t k, In (t, k) (map load_key steps) -> has_space t = false).
  { intros t k Hin. apply Hkeys in Hin. destruct Hin as (tp & P1 & _ & <- & _). apply Hnospace, P1. }
  intros [t1 k1] [t2 k2] Hx Hy He. cbn [fst snd] in He.
  destruct (step_name_inj _ _ _ _ (Hsp _ _ Hx) (Hsp _ _ Hy) He) as [-> ->]. reflexivity.
Qed.

Lemma pipeline_rel ms :
  mapping_from_recipe tpls deps decls = Ok ms ->
  exists order steps,
    sort_dependencies (remove_pc_deps (inferred_of loadable)) (declared_of decls) (visible_tables tpls)
      = Ok order /\
    load_steps tis' order = Ok steps /\ Forall2 (made_from same_lookups loadable) steps ms.
Proof.
  intros H. destruct (mapping_inv _ H) as (order & steps & named & H1 & H2 & H3 & H4).
  exists order, steps. splits; [assumption..|]. apply named_made_from in H3.
  rewrite (named_is_dict _ _ _ _ H2 H3) in H4. apply add_after_from_same in H4.
  revert H3 H4. apply Forall2_compose. intros s [n m] nm Hb (lks & Hl & ->).
  destruct Hb as (B1 & B2 & B3 & B4 & B5 & rt & B6 & B7).
  unfold made_from. cbn [fst snd with_lookups m_table m_update_key m_sf_object m_lookups m_fields] in *.
  rewrite B5. splits; try assumption. exists rt. auto.
Qed.

Lemma mapping_step ms name m :
  mapping_from_recipe tpls deps decls = Ok ms -> In (name, m) ms ->
  exists s, made_from same_lookups loadable s (name, m).
Proof.
  intros H Hm. destruct (pipeline_rel _ H) as (order & steps & _ & _ & Hrel).
  destruct (Forall2_In_r _ _ _ _ Hrel Hm) as (s & _ & R). exists s. exact R.
Qed.

Theorem steps_complete ms :
  mapping_from_recipe tpls deps decls = Ok ms ->
  NoDup (map step_key ms) /\
  (forall t k, In (t, k) (map step_key ms) <->
               exists tp, In tp tpls /\ hidden (tp_table tp) = false /\
                          tp_table tp = t /\ norm_key (tp_key tp) = k) /\
  forall name m, In (name, m) ms ->
    name = step_name (m_table m) (m_update_key m) /\
    m_sf_object m = (if String.eqb (m_table m) "PersonContact" then "Contact" else m_table m) /\
    NoDup (map lk_field (m_lookups m)) /\ NoDup (map snd (m_fields m)) /\
    (forall l, In l (m_lookups m) ->
       vfield tpls (m_table m) (lk_field l) /\
       observed tpls deps (m_table m) (lk_field l) (lk_table l)) /\
    (forall f, In f (map snd (m_fields m)) ->
       vfield tpls (m_table m) f /\
       ((forall to, ~ observed tpls deps (m_table m) f to) \/ is_rt f = true)) /\
    (forall f, vfield tpls (m_table m) f -> (exists to, observed tpls deps (m_table m) f to) ->
               In f (map lk_field (m_lookups m))) /\
    (forall f, vfield tpls (m_table m) f -> (forall to, ~ observed tpls deps (m_table m) f to) ->
               In f (map snd (m_fields m))).
Proof.
  intros H. destruct (pipeline_rel _ H) as (order & steps & _ & Hs & Hrel).
  destruct (mapped_steps_spec _ _ _ Hs) as (Hnd & Hkeys & Hst).
  rewrite (made_from_keys _ _ _ _ Hrel). splits; [exact Hnd|exact Hkeys|].
  intros name m Hm. destruct (Forall2_In_r _ _ _ _ Hrel Hm) as (s & Hsin & R).
  pose proof (made_from_lookup _ _ _ R) as Hlk.
  destruct R as (R1 & R2 & R3 & R4 & R5 & rt & R6 & R7). cbn [fst snd] in *.
  destruct (Hst s Hsin) as (_ & V3 & V4).
  destruct (fields_of_step_facts loadable (ls_table s) rt (ls_fields s) V3 R6) as (F1 & F2 & F3).
  rewrite R2 in *. rewrite R3, R7, (same_lookups_fields _ _ R5), lookups_of_fields. splits.
  - assumption.
  - assumption.
  - apply NoDup_filter, V3.
  - assumption.
  - intros l Hl. destruct (Hlk l Hl) as [L1 L2]. split; [apply V4, L1|apply ref_target_observed, L2].
  - intros f Hf. destruct (F2 f Hf) as [G1 [G2|G2]]; (split; [apply V4, G1|]); [left|right; exact G2].
    apply ref_target_None_observed, G2.
  - intros f Hf [to Hobs]. apply filter_In. split; [apply V4, Hf|].
    apply (observed_ref_target _ _ _ Hobs).
  - intros f Hf Hno. apply F3; [apply V4, Hf|]. apply ref_target_None_observed, Hno.
Qed.

Theorem mapping_total :
  (forall t f1 f2, vfield tpls t f1 -> vfield tpls t f2 -> is_rt f1 = true -> is_rt f2 = true -> f1 = f2) ->
  exists ms, mapping_from_recipe tpls deps decls = Ok ms.
Proof.
  intros Hrt. unfold mapping_from_recipe. fold (visible_tables tpls). fold loadable. fold tis'. fold dmap.
  destruct (sort_terminates (remove_pc_deps (inferred_of loadable)) (declared_of decls)
              (visible_tables tpls)) as [order Ho].
  rewrite Ho. cbn [bind].
  destruct (load_steps_ok tis' order) as [steps Hs].
  { intros ti Hti. apply (sort_covers _ _ _ _ Ho). unfold visible_tables.
    rewrite <- remove_pc_names. apply in_map, Hti. }
  rewrite Hs. cbn [bind]. unfold mappings_from_load_steps.
  destruct (mapped_steps_spec _ _ _ Hs) as (_ & Hkeys & Hst).
  destruct (mapM_ok (step_body steps loadable dmap) steps) as [named Hn].
  { intros s Hsin. destruct (Hst s Hsin) as (_ & V3 & V4). destruct (find_rt_ok (ls_fields s) V3) as [rt Hf].
    { intros f1 f2 H1 H2. apply (Hrt (ls_table s)); apply V4; assumption. }
    pose proof (step_body_spec steps loadable dmap s) as S.
    destruct (step_body steps loadable dmap s); [eexists; reflexivity|destruct (S rt Hf)]. }
  rewrite Hn. cbn [bind]. apply named_made_from in Hn. rewrite (named_is_dict _ _ _ _ Hs Hn).
  apply add_after_from_ok. intros n m l Hnm Hl.
  destruct (Forall2_In_r _ _ _ _ Hn Hnm) as (s & _ & _ & _ & _ & _ & B5 & _).
  cbn [snd] in B5. rewrite <- B5 in Hl. apply lookups_of_In in Hl.
  destruct Hl as (_ & L2 & _). apply ref_target_observed in L2. destruct L2 as [_ [L2|L2]]; [right|auto].
  (* some step loads the target table *)
  apply visible_tables_In in L2. destruct L2 as (tp & P1 & P2 & P3).
  assert (Hst2 : In (lk_table l, norm_key (tp_key tp)) (map step_key named))
    by (rewrite (made_from_keys _ _ _ _ Hn); apply Hkeys; exists tp; rewrite P2; auto).
  apply in_map_iff in Hst2. destruct Hst2 as (nm2 & [= T2 _] & Hin2).
  rewrite index_by_sobject_spec. destruct (last_name (lk_table l) named) eqn:El; [discriminate|].
  destruct (proj1 (last_name_None _ _) El _ Hin2 T2).
Qed.

End Pipeline.

Theorem parents_first tpls deps ms (rank : string -> nat) pre name m post l nj mj :
  (forall tp, In tp tpls -> has_space (tp_table tp) = false) ->
  (forall d, In d deps -> In (d_from d) (visible_tables tpls) -> d_to d <> d_from d ->
             In (d_to d) (visible_tables tpls) \/ d_to d = "PersonContact" ->
             In (d_to d) (visible_tables tpls) /\ rank (d_to d) < rank (d_from d)) ->
  mapping_from_recipe tpls deps [] = Ok ms -> ms = pre ++ (name, m) :: post ->
  In l (m_lookups m) -> lk_table l <> m_table m ->
  ~ (m_table m = "Account" /\ lower (lk_table l) = "personcontact") ->
  In (nj, mj) ms -> m_table mj = lk_table l ->
  In (nj, mj) pre.
Proof.
  intros Hns Hg H Heq Hl Hne Hnpc Hj Htj.
  destruct (pipeline_rel _ _ _ Hns _ H) as (order & steps & Hsort & Hs & Hrel).
  set (loadable := loadable_deps (visible_tables tpls) deps) in *.
  rewrite Heq in Hrel. apply Forall2_app_inv_r in Hrel.
  destruct Hrel as (spre & srest & Hpre & Hrest & Hsteps).
  inversion Hrest as [|s nm spost post' Rs Hpost]; subst.
  apply in_app_or in Hj. destruct Hj as [Hj|[[= <- <-]|Hj]]; [assumption|congruence|exfalso].
  (* the step of the target table comes later: its table is not earlier in the order *)
  destruct (Forall2_In_r _ _ _ _ Hpost Hj) as (sj & Hsj & _ & Rj2 & _).
  destruct (load_steps_sorted _ _ _ _ _ _ _ Hs eq_refl Hsj) as (i & j & I1 & I2 & I3).
  destruct (made_from_lookup _ _ _ Rs l Hl) as [_ L4]. apply ref_target_Some in L4.
  destruct Rs as (_ & Rs2 & _). cbn [snd] in *. rewrite Rs2 in *.
  destruct (mapped_steps_spec _ _ _ Hs) as (_ & _ & Hst).
  destruct (Hst s) as (Htn & _); [apply in_or_app; right; left; reflexivity|].
  (* but the lookup is an edge of the sorted graph, which is acyclic *)
  assert (Hbefore : forall t x, In t (visible_tables tpls) ->
            In x (tg_of (remove_pc_deps (inferred_of loadable)) t) -> x <> t -> before x t order).
  { eapply (sort_loop_sound _ _ _ rank); [|apply visible_tables_NoDup|exact Hsort].
    intros t x Ht Hx. apply sorted_tg_In in Hx. destruct Hx as [(d & D1 & <- & <-) _].
    apply (loadable_In tpls deps) in D1. destruct D1. intros Hxt. apply Hg; assumption. }
  destruct (Hbefore (ls_table s) (lk_table l) Htn) as (i' & j' & B1 & B2 & B3); [|assumption|].
  { apply sorted_tg_In. split; [|assumption]. exists (mkDep (ls_table s) (lk_table l) (lk_field l)). auto. }
  rewrite <- Rj2, Htj in I2. rewrite I2 in B1. rewrite I1 in B2. injection B1 as <-. injection B2 as <-. lia.
Qed.

Definition functional (ds : list dep) : Prop :=
  forall a b, In a ds -> In b ds -> d_from a = d_from b -> d_field a = d_field b -> d_to a = d_to b.

Lemma ref_target_set_eq ds1 ds2 :
  functional ds1 -> (forall d, In d ds1 <-> In d ds2) ->
  forall t f, ref_target ds1 t f = ref_target ds2 t f.
Proof.
  intros Hf Hset t f.
  pose proof (ref_target_spec ds1 t f) as S1. pose proof (ref_target_spec ds2 t f) as S2.
  destruct (ref_target ds1 t f) as [a|], (ref_target ds2 t f) as [b|]; [f_equal| | |reflexivity].
  - apply Hset in S2. apply (Hf _ _ S1 S2); reflexivity.
  - apply Hset in S1. destruct (S2 _ S1). auto.
  - apply Hset in S2. destruct (S1 _ S2). auto.
Qed.

Lemma sort_loop_ext tg1 tg2 stuck :
  (forall t x, In x (tg1 t) <-> In x (tg2 t)) ->
  forall fuel tables sorted,
    sort_loop tg1 stuck fuel tables sorted = sort_loop tg2 stuck fuel tables sorted.
Proof.
  intros Htg.
  assert (Hfree : forall s t, is_free tg1 s t = is_free tg2 s t).
  { intros s t. apply eq_true_iff_eq. rewrite !is_free_spec.
    split; intros H x Hx; apply H, Htg, Hx. }
  induction fuel as [|fuel IH]; intros [|t0 r0] sorted; try reflexivity.
  cbn [sort_loop]. rewrite (filter_ext _ _ (Hfree sorted)).
  destruct (Nat.eqb _ _); [|apply IH]. destruct (stuck _); cbn [bind]; [apply IH|reflexivity].
Qed.

Lemma inferred_of_nonempty ds : nonempty (inferred_of ds) = nonempty ds.
Proof.
  destruct ds as [|d ds _] using rev_ind; [reflexivity|].
  unfold inferred_of. rewrite fold_left_app. cbn [fold_left].
  destruct (fold_left _ ds []) as [|[k vs] acc]; cbn [group_add]; [|destruct (String.eqb _ k)];
    destruct ds; reflexivity.
Qed.

Lemma remove_pc_deps_nonempty inf : nonempty (remove_pc_deps inf) = nonempty inf.
Proof. destruct inf; reflexivity. Qed.

Lemma sort_dependencies_set ld1 ld2 declared names :
  (forall d, In d ld1 <-> In d ld2) ->
  sort_dependencies (remove_pc_deps (inferred_of ld1)) declared names =
  sort_dependencies (remove_pc_deps (inferred_of ld2)) declared names.
Proof.
  intros Hset. unfold sort_dependencies.
  rewrite !remove_pc_deps_nonempty, !inferred_of_nonempty.
  replace (nonempty ld2) with (nonempty ld1).
  2:{ destruct ld1 as [|a r], ld2 as [|b s]; try reflexivity; [destruct (Hset b)|destruct (Hset a)];
        cbn [In] in *; tauto. }
  apply sort_loop_ext. intros t x. unfold merged_tg.
  destruct (assoc_get t declared); [tauto|]. rewrite !sorted_tg_In.
  split; intros [[d [D1 D2]] Hn]; (split; [exists d; split; [apply Hset, D1|exact D2]|exact Hn]).
Qed.

Lemma step_body_ext steps ld1 ld2 dmap s :
  (forall t f, ref_target ld1 t f = ref_target ld2 t f) ->
  step_body steps ld1 dmap s = step_body steps ld2 dmap s.
Proof.
  intros H. unfold step_body. destruct (find_rt (ls_fields s)) as [rt|e]; cbn [bind]; [|reflexivity].
  erewrite filter_ext, flat_map_ext; [reflexivity|intros f; rewrite H; reflexivity..].
Qed.

Theorem mapping_set_independent tpls deps1 deps2 decls :
  functional deps1 -> (forall d, In d deps1 <-> In d deps2) ->
  mapping_from_recipe tpls deps1 decls = mapping_from_recipe tpls deps2 decls.
Proof.
  intros Hf Hset. unfold mapping_from_recipe.
  set (names := map ti_name (infer_tables tpls)).
  assert (Hl : forall d, In d (loadable_deps names deps1) <-> In d (loadable_deps names deps2)).
  { intros d. unfold loadable_deps. rewrite !filter_In, Hset. reflexivity. }
  assert (Hfl : functional (loadable_deps names deps1)).
  { intros a b Ha Hb. apply filter_In in Ha, Hb. apply Hf; tauto. }
  rewrite (sort_dependencies_set _ _ _ _ Hl).
  destruct (sort_dependencies _ _ names) as [order|e]; cbn [bind]; [|reflexivity].
  destruct (load_steps _ order) as [steps|e]; cbn [bind]; [|reflexivity].
  unfold mappings_from_load_steps. erewrite mapM_ext; [reflexivity|].
  intros s. apply step_body_ext, ref_target_set_eq; assumption.
Qed.
