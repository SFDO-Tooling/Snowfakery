(* The readers of StreamCodecs.v invert the writers (property C08); at the end, when a cache in
   front of an encoder changes nothing of what is written. *)
From Coq Require Import ZArith List Bool String Lia ZifyBool DecimalPos.
From SFV Require Import Base Streams StreamCodecs StreamCases.
Import ListNotations. Open Scope Z_scope.

(* every reader is a state machine folded over its input *)
Definition run {S C} (step : S -> C -> S) (s : S) (t : list C) : S := fold_left step t s.

Lemma run_app {S C} (step : S -> C -> S) s a b : run step s (a ++ b) = run step (run step s a) b.
Proof. apply fold_left_app. Qed.

Lemma run_cons {S C} (step : S -> C -> S) s c t : run step s (c :: t) = run step (step s c) t.
Proof. reflexivity. Qed.

Lemma join_with_cons {A} (sep x y : list A) r :
  join_with sep (x :: y :: r) = x ++ sep ++ join_with sep (y :: r).
Proof. reflexivity. Qed.

Lemma dq_run f : forall fld row rows,
  run csv_step (mkC MQ fld row rows) (csv_dq f) = mkC MQ (rev f ++ fld) row rows.
Proof.
  induction f as [|c f IH]; intros fld row rows; cbn [csv_dq rev]; [reflexivity|].
  rewrite <- app_assoc, <- IH. destruct (Z.eqb_spec c 34) as [->|N]; [reflexivity|].
  cbn [run fold_left]. unfold csv_step at 2. cbn [c_mode]. apply Z.eqb_neq in N. rewrite N. reflexivity.
Qed.

Lemma special_parts c : csv_special c = false ->
  (c =? 44) = false /\ (c =? 34) = false /\ is_nl c = false.
Proof. unfold csv_special, is_nl. lia. Qed.

Lemma plain_run f : existsb csv_special f = false -> forall fld row rows,
  run csv_step (mkC MIn fld row rows) f = mkC MIn (rev f ++ fld) row rows.
Proof.
  induction f as [|c f IH]; intros H fld row rows; [reflexivity|].
  cbn [existsb] in H. apply orb_false_iff in H. destruct H as [Hc Hf].
  destruct (special_parts c Hc) as (H44 & _ & Hnl).
  cbn [rev]. rewrite <- app_assoc, <- (IH Hf). cbn [run fold_left]. unfold csv_step at 2. cbn [c_mode].
  rewrite Hnl, H44. reflexivity.
Qed.

(* the state after the characters of a field, seen from a field start: whatever comes next
   (a comma or a line end) stores exactly [f] *)
Definition holds (s : cst) (f : text) (row : list text) (rows : list (list text)) : Prop :=
  exists m, (m = MIn \/ m = MQQ) /\ s = mkC m (rev f) row rows.

Lemma field_read f m row rows : m = MRec \/ m = MFld -> f <> [] ->
  holds (run csv_step (mkC m [] row rows) (csv_field f)) f row rows.
Proof.
  intros Hm Hne. unfold csv_field. destruct (existsb csv_special f) eqn:E.
  - exists MQQ. split; [auto|]. change (34 :: ?x) with ([34] ++ x). rewrite !run_app.
    assert (run csv_step (mkC m [] row rows) [34] = mkC MQ [] row rows) as -> by (destruct Hm as [-> | ->]; reflexivity).
    rewrite dq_run, app_nil_r. reflexivity.
  - exists MIn. split; [auto|]. destruct f as [|c f]; [easy|].
    cbn [existsb] in E. apply orb_false_iff in E. destruct E as [Hc Hf].
    destruct (special_parts c Hc) as (H44 & H34 & Hnl).
    replace (rev (c :: f)) with (rev f ++ [c]) by reflexivity. rewrite <- (plain_run f Hf), run_cons. f_equal.
    assert (S : start_field (mkC m [] row rows) c = mkC MIn [c] row rows)
      by (unfold start_field; rewrite H34, H44; reflexivity).
    destruct Hm as [-> | ->]; unfold csv_step, start_record; cbn [c_mode]; rewrite Hnl; exact S.
Qed.

Lemma holds_comma s f row rows : holds s f row rows -> csv_step s 44 = mkC MFld [] (f :: row) rows.
Proof.
  intros (m & [-> | ->] & ->); unfold csv_step, save_field; cbn; rewrite rev_involutive; reflexivity.
Qed.

Lemma holds_cr s f row rows : holds s f row rows -> csv_step s 13 = mkC MEat [] [] (rev (f :: row) :: rows).
Proof.
  intros (m & [-> | ->] & ->); unfold csv_step, end_record, save_field; cbn; rewrite rev_involutive; reflexivity.
Qed.

Lemma field_then_comma f m row rows : m = MRec \/ m = MFld ->
  run csv_step (mkC m [] row rows) (csv_field f ++ [44]) = mkC MFld [] (f :: row) rows.
Proof.
  intro Hm. rewrite run_app. destruct f as [|c f'] eqn:Ef; [destruct Hm as [-> | ->]; reflexivity|].
  rewrite <- Ef. apply holds_comma, field_read; [exact Hm|congruence].
Qed.

(* an empty field at the start of a record would be read as an empty line: the writer avoids it *)
Lemma field_then_crlf f m row rows : m = MFld \/ (m = MRec /\ f <> []) ->
  run csv_step (mkC m [] row rows) (csv_field f ++ [13; 10]) = mkC MRec [] [] (rev (f :: row) :: rows).
Proof.
  intro Hm. rewrite run_app. destruct f as [|c f'] eqn:Ef.
  - destruct Hm as [-> | [_ H]]; [reflexivity|congruence].
  - rewrite <- Ef. change (run csv_step ?s [13; 10]) with (csv_step (csv_step s 13) 10).
    erewrite holds_cr; [reflexivity|]. apply field_read; [|congruence]. destruct Hm as [-> | [-> _]]; auto.
Qed.

Lemma fields_run r : r <> [] -> forall m row rows,
  m = MFld \/ (m = MRec /\ r <> [[]]) ->
  run csv_step (mkC m [] row rows) (join_with [44] (map csv_field r) ++ [13; 10])
  = mkC MRec [] [] ((rev row ++ r) :: rows).
Proof.
  induction r as [|f r IH]; intros Hne m row rows Hm; [congruence|].
  destruct r as [|f2 r'].
  - cbn [map join_with]. rewrite field_then_crlf; [reflexivity|].
    destruct Hm as [-> | [-> H]]; [auto|]. right. split; [reflexivity|congruence].
  - cbn [map]. rewrite (join_with_cons [44] (csv_field f)), <- !app_assoc, (app_assoc _ [44]), run_app.
    rewrite field_then_comma by (destruct Hm as [-> | [-> _]]; auto).
    rewrite (IH ltac:(discriminate)) by auto. cbn [rev]. rewrite <- app_assoc. reflexivity.
Qed.

Lemma row_run r rows :
  run csv_step (mkC MRec [] [] rows) (csv_row r) = mkC MRec [] [] (r :: rows).
Proof.
  destruct r as [|f r']; [reflexivity|].
  assert (N : f :: r' = [[]] \/ f :: r' <> [[]]) by (destruct f, r'; auto; right; discriminate).
  destruct N as [-> | N]; [reflexivity|].
  replace (csv_row (f :: r')) with (join_with [44] (map csv_field (f :: r')) ++ [13; 10])
    by (destruct f, r'; easy).
  apply fields_run; [discriminate|auto].
Qed.

Lemma file_run rows : forall acc,
  run csv_step (mkC MRec [] [] acc) (csv_file rows) = mkC MRec [] [] (rev rows ++ acc).
Proof.
  induction rows as [|r rows IH]; intro acc; [reflexivity|].
  unfold csv_file. cbn [map concat]. rewrite run_app, row_run. fold (csv_file rows).
  rewrite IH. cbn [rev]. rewrite <- app_assoc. reflexivity.
Qed.

Theorem csv_roundtrip rows : csv_read (csv_file rows) = Ok rows.
Proof.
  unfold csv_read, csv_init. fold (run csv_step (mkC MRec [] [] []) (csv_file rows)).
  rewrite file_run. cbn. rewrite app_nil_r, rev_involutive. reflexivity.
Qed.

Definition dstep (acc c : Z) : Z := acc * 10 + (c - 48).

Lemma of_uint_acc_fold u : forall acc,
  Z.pos (Pos.of_uint_acc u acc) = fold_left dstep (uint_text u) (Z.pos acc).
Proof.
  induction u; intro acc; cbn [Pos.of_uint_acc uint_text fold_left]; try reflexivity;
    rewrite IHu; f_equal; unfold dstep; lia.
Qed.

Lemma of_uint_fold u : Z.of_N (Pos.of_uint u) = fold_left dstep (uint_text u) 0.
Proof.
  induction u; cbn [Pos.of_uint uint_text fold_left]; try reflexivity; try exact IHu;
    cbn [Z.of_N]; apply of_uint_acc_fold.
Qed.

(* str(int) consists of digits and, in front, possibly a minus sign *)
Lemma uint_text_forall (P : Z -> bool) : (forall d, is_digit d = true -> P d = true) ->
  forall u, forallb P (uint_text u) = true.
Proof. intros H. induction u; cbn [uint_text forallb]; rewrite ?IHu, ?H by reflexivity; reflexivity. Qed.

Lemma dec_text_forall (P : Z -> bool) z : P 45 = true -> (forall d, is_digit d = true -> P d = true) ->
  forallb P (dec_text z) = true.
Proof.
  intros H45 H. unfold dec_text. destruct (Z.to_int z); cbn [forallb]; rewrite ?H45, uint_text_forall; auto.
Qed.

Lemma pos_text p : exists c r, uint_text (Pos.to_uint p) = c :: r /\ forallb is_digit (c :: r) = true /\
  digits_value (c :: r) = Z.pos p.
Proof.
  pose proof (Unsigned.to_uint_nonnil p) as N.
  assert (V : digits_value (uint_text (Pos.to_uint p)) = Z.pos p).
  { unfold digits_value. fold dstep. rewrite <- of_uint_fold, Unsigned.of_to. reflexivity. }
  pose proof (uint_text_forall is_digit (fun d H => H) (Pos.to_uint p)) as D.
  destruct (uint_text (Pos.to_uint p)) as [|c r] eqn:E; [|eauto].
  destruct (Pos.to_uint p); discriminate || contradiction.
Qed.

Theorem int_roundtrip z : parse_int (dec_text z) = Some z.
Proof.
  unfold dec_text. destruct z as [|p|p]; cbn [Z.to_int]; [reflexivity| |];
    destruct (pos_text p) as (c & r & -> & D & V); unfold parse_int.
  - replace (c =? 45) with false by (cbn [forallb] in D; unfold is_digit in D; lia).
    rewrite D, V. reflexivity.
  - change (45 =? 45) with true. cbv iota. rewrite D, V. reflexivity.
Qed.

Lemma dec_text_head z : exists c r, dec_text z = c :: r /\ (is_digit c = true \/ c = 45).
Proof.
  unfold dec_text. destruct z as [|p|p]; cbn [Z.to_int].
  - exists 48, []. auto.
  - destruct (pos_text p) as (c & r & -> & D & _). exists c, r. cbn [forallb] in D. split; [reflexivity|lia].
  - eauto.
Qed.

(* a Python str: code points 0 .. 0x10FFFF *)
Definition valid_cp (c : Z) : Prop := 0 <= c <= 1114111.

(* no high surrogate immediately followed by a low surrogate (json.loads would join the two
   escapes into one code point) *)
Fixpoint pair_free (s : text) : bool :=
  match s with
  | [] => true
  | a :: r => match r with c :: _ => negb (is_high a && is_low c) | [] => true end && pair_free r
  end.

Lemma hex_val_digit d : 0 <= d < 16 -> hex_val (hex_digit d) = Some d.
Proof.
  intros H. unfold hex_val, hex_digit. destruct (d <? 10) eqn:E.
  - replace ((48 <=? 48 + d) && (48 + d <=? 57)) with true by lia. f_equal. lia.
  - replace ((48 <=? 87 + d) && (87 + d <=? 57)) with false by lia.
    replace ((97 <=? 87 + d) && (87 + d <=? 102)) with true by lia. f_equal. lia.
Qed.

Lemma uni_step acc pend toks k v d : 0 <= d < 16 ->
  j_step (JUni acc pend k v, toks) (hex_digit d) =
  match k with
  | 3%nat => (finish_u acc pend (v * 16 + d), toks)
  | _ => (JUni acc pend (S k) (v * 16 + d), toks)
  end.
Proof. intros H. unfold j_step. rewrite hex_val_digit by exact H. reflexivity. Qed.

Lemma uni_run acc pend toks v : 0 <= v < 65536 ->
  run j_step (JInStr acc pend, toks) (json_u v) = (finish_u acc pend v, toks).
Proof.
  intro Hv. unfold json_u, hex4.
  change (run j_step (JInStr acc pend, toks) (92 :: 117 :: ?x)) with (run j_step (JUni acc pend 0 0, toks) x).
  assert (M : forall x, 0 <= x mod 16 < 16) by (intro; apply Z.mod_pos_bound; lia).
  assert (0 <= v / 4096 < 16) by (split; [apply Z.div_pos|apply Z.div_lt_upper_bound]; lia).
  cbn [run fold_left]. rewrite !uni_step by auto. do 2 f_equal.
  (* digit by digit, so that only divisions by 16 are left *)
  replace (v / 4096) with (v / 16 / 16 / 16) by (rewrite !Z.div_div by lia; reflexivity).
  replace (v / 256) with (v / 16 / 16) by (rewrite Z.div_div by lia; reflexivity).
  pose proof (Z.div_mod v 16). pose proof (Z.div_mod (v / 16) 16). pose proof (Z.div_mod (v / 16 / 16) 16). lia.
Qed.

Lemma escape_run acc pend toks x code : (x =? 117) = false -> simple_escape x = Some code ->
  run j_step (JInStr acc pend, toks) [92; x] = (JInStr (code :: jflush acc pend) None, toks).
Proof.
  intros Hu He. change (run j_step (JInStr acc pend, toks) [92; x]) with (j_step (JEsc acc pend, toks) x).
  unfold j_step. rewrite Hu, He. reflexivity.
Qed.

Lemma surrogate_split c : 65536 <= c <= 1114111 ->
  let h := 55296 + (c - 65536) / 1024 in
  let l := 56320 + (c - 65536) mod 1024 in
  (0 <= h < 65536 /\ 0 <= l < 65536) /\ is_high h = true /\ is_low h = false /\ is_low l = true /\
  join_pair h l = c.
Proof.
  intros Hc. pose proof (Z.div_mod (c - 65536) 1024 ltac:(lia)). pose proof (Z.mod_pos_bound (c - 65536) 1024 ltac:(lia)).
  assert (0 <= (c - 65536) / 1024 < 1024) by (split; [apply Z.div_pos|apply Z.div_lt_upper_bound]; lia).
  unfold is_high, is_low, join_pair. cbv zeta. repeat split; lia.
Qed.

(* What the tokenizer holds after one written character: a high surrogate waits for a
   possible partner, everything else is appended. *)
Lemma char_run c acc pend toks :
  valid_cp c -> (pend <> None -> is_low c = false) ->
  run j_step (JInStr acc pend, toks) (json_char c) =
  (if is_high c then JInStr (jflush acc pend) (Some c) else JInStr (c :: jflush acc pend) None, toks).
Proof.
  intros Hv Hp. unfold valid_cp in Hv. unfold json_char.
  destruct (Z.eqb_spec c 34) as [->|N34]; [apply escape_run; reflexivity|].
  destruct (Z.eqb_spec c 92) as [->|N92]; [apply escape_run; reflexivity|].
  destruct (Z.eqb_spec c 10) as [->|_]; [apply escape_run; reflexivity|].
  destruct (Z.eqb_spec c 13) as [->|_]; [apply escape_run; reflexivity|].
  destruct (Z.eqb_spec c 9) as [->|_]; [apply escape_run; reflexivity|].
  destruct (Z.eqb_spec c 8) as [->|_]; [apply escape_run; reflexivity|].
  destruct (Z.eqb_spec c 12) as [->|_]; [apply escape_run; reflexivity|].
  destruct ((32 <=? c) && (c <=? 126)) eqn:Epr.
  { replace (is_high c) with false by (unfold is_high; lia). cbn [run fold_left]. unfold j_step.
    apply Z.eqb_neq in N34, N92. rewrite N34, N92. reflexivity. }
  clear N34 N92 Epr. destruct (Z.ltb_spec c 65536) as [Lt|Ge].
  - rewrite uni_run by lia. unfold finish_u.
    destruct pend as [h|]; [rewrite Hp by discriminate|]; destruct (is_high c); reflexivity.
  - (* two escapes: the first leaves a high surrogate waiting, the second joins it *)
    replace (is_high c) with false by (unfold is_high; lia).
    destruct (surrogate_split c ltac:(lia)) as ([Bh Bl] & Hh & Lh & Ll & J). cbv zeta in *.
    rewrite run_app, (uni_run _ _ _ _ Bh).
    replace (finish_u acc pend _) with (JInStr (jflush acc pend) (Some (55296 + (c - 65536) / 1024)))
      by (unfold finish_u; rewrite Lh, Hh; destruct pend; reflexivity).
    rewrite (uni_run _ _ _ _ Bl). unfold finish_u. rewrite Ll, J. reflexivity.
Qed.

Lemma chars_run s : forall acc pend toks,
  Forall valid_cp s -> pair_free s = true ->
  (pend <> None -> match s with c :: _ => is_low c = false | [] => True end) ->
  exists acc' pend',
    run j_step (JInStr acc pend, toks) (flat_map json_char s) = (JInStr acc' pend', toks) /\
    jflush acc' pend' = rev s ++ jflush acc pend.
Proof.
  induction s as [|c s IH]; intros acc pend toks Hv Hpf Hp; [exists acc, pend; auto|].
  inversion Hv as [|? ? Hc Hs]; subst. cbn [pair_free] in Hpf. apply andb_true_iff in Hpf. destruct Hpf as [Hpair Hpf].
  cbn [flat_map rev]. rewrite run_app, char_run, <- app_assoc by assumption.
  destruct (is_high c); apply IH; try assumption; [|easy].
  intros _. destruct s as [|c2 s']; [exact I|]. cbn [andb negb] in Hpair. apply negb_true_iff, Hpair.
Qed.

Lemma string_run s toks : Forall valid_cp s -> pair_free s = true ->
  run j_step (JIdle, toks) (json_string s) = (JIdle, JStr s :: toks).
Proof.
  intros Hv Hpf. unfold json_string.
  change (run j_step (JIdle, toks) (34 :: ?x)) with (run j_step (JInStr [] None, toks) x).
  destruct (chars_run s [] None toks Hv Hpf) as (acc & pend & Hrun & Hfl); [easy|].
  rewrite run_app, Hrun. cbn [run fold_left j_step]. change (34 =? 34) with true. cbv iota.
  rewrite Hfl. cbn [jflush]. rewrite app_nil_r, rev_involutive. reflexivity.
Qed.

Definition val_tok (v : cell) : jtok :=
  match v with
  | CNull => JNull | CBool true => JTrue | CBool false => JFalse | CNum z => JNum z | CText s => JStr s
  end.

Lemma tok_value_val v : tok_value (val_tok v) = Some v.
Proof. destruct v as [|[]| |]; reflexivity. Qed.

Definition member_tokens (o : jobject) : list jtok :=
  join_with [JComma] (map (fun kv => [JStr (fst kv); JColon; val_tok (snd kv)]) o).
Definition obj_tokens (o : jobject) : list jtok := JLbrace :: member_tokens o ++ [JRbrace].
Definition doc_tokens (objs : list jobject) : list jtok :=
  JLbr :: join_with [JComma] (map obj_tokens objs) ++ [JRbr].

Definition text_ok (s : text) : Prop := Forall valid_cp s /\ pair_free s = true.
Definition cell_ok (v : cell) : Prop := match v with CText s => text_ok s | _ => True end.
Definition obj_ok (o : jobject) : Prop := Forall (fun kv => text_ok (fst kv) /\ cell_ok (snd kv)) o.

Lemma word_run w : forall acc toks, forallb is_wordc w = true ->
  run j_step (JWord acc, toks) w = (JWord (rev w ++ acc), toks).
Proof.
  induction w as [|c w IH]; intros acc toks H; [reflexivity|].
  cbn [forallb] in H. apply andb_true_iff in H. destruct H as [Hc Hw].
  cbn [rev]. rewrite <- app_assoc, <- (IH _ _ Hw). cbn [run fold_left]. unfold j_step at 2. rewrite Hc. reflexivity.
Qed.

Lemma wordc_not_special c : is_wordc c = true ->
  is_ws c = false /\ (c =? 91) = false /\ (c =? 93) = false /\ (c =? 123) = false /\
  (c =? 125) = false /\ (c =? 44) = false /\ (c =? 58) = false /\ (c =? 34) = false.
Proof. unfold is_wordc, is_digit, is_ws. intro H. repeat split; lia. Qed.

(* a number or a keyword becomes a token when the character after it arrives *)
Lemma word_then w d t toks : w <> [] -> forallb is_wordc w = true -> is_wordc d = false ->
  word_tok w = Some t ->
  run j_step (JIdle, toks) (w ++ [d]) = j_idle (t :: toks) d.
Proof.
  intros Hne Hw Hd Ht. destruct w as [|c w]; [congruence|].
  pose proof Hw as Hw'. cbn [forallb] in Hw. apply andb_true_iff in Hw. destruct Hw as [Hc Hw].
  replace (run j_step (JIdle, toks) ((c :: w) ++ [d])) with (run j_step (JWord [c], toks) (w ++ [d])).
  - rewrite run_app, word_run by assumption. cbn [run fold_left]. unfold j_step. rewrite Hd.
    replace (rev (rev w ++ [c])) with (c :: w) by (rewrite rev_app_distr, rev_involutive; reflexivity).
    rewrite Ht. reflexivity.
  - destruct (wordc_not_special c Hc) as (H1 & H2 & H3 & H4 & H5 & H6 & H7 & H8).
    rewrite <- app_comm_cons, run_cons. f_equal. unfold j_step, j_idle.
    rewrite H1, H2, H3, H4, H5, H6, H7, H8, Hc. reflexivity.
Qed.

Lemma word_tok_num z : word_tok (dec_text z) = Some (JNum z).
Proof.
  unfold word_tok. rewrite int_roundtrip.
  destruct (dec_text_head z) as (c & r & -> & Hc). unfold text_eqb, is_digit in *. cbn [list_eqb].
  replace (c =? 116) with false by lia. replace (c =? 102) with false by lia.
  replace (c =? 110) with false by lia. reflexivity.
Qed.

Definition delim_tok (d : Z) : jtok := if d =? 44 then JComma else JRbrace.

Lemma value_delim v d toks : cell_ok v -> d = 44 \/ d = 125 ->
  run j_step (JIdle, toks) (json_value v ++ [d]) = (JIdle, delim_tok d :: val_tok v :: toks).
Proof.
  intros Hv Hd.
  assert (Hidle : j_idle (val_tok v :: toks) d = (JIdle, delim_tok d :: val_tok v :: toks))
    by (destruct Hd; subst d; reflexivity).
  assert (Hdw : is_wordc d = false) by (destruct Hd; subst d; reflexivity).
  destruct v as [|[]|z|s]; cbn [json_value val_tok] in *.
  - rewrite (word_then _ d JNull); auto; discriminate.
  - rewrite (word_then _ d JTrue); auto; discriminate.
  - rewrite (word_then _ d JFalse); auto; discriminate.
  - rewrite (word_then _ d (JNum z)); auto using word_tok_num.
    + destruct (dec_text_head z) as (c & r & -> & _). discriminate.
    + apply dec_text_forall; [reflexivity|]. intros c Hc. unfold is_wordc. rewrite Hc. reflexivity.
  - destruct Hv as [Hv Hpf]. rewrite run_app, string_run by assumption. exact Hidle.
Qed.

Lemma pair_delim kv d toks : text_ok (fst kv) -> cell_ok (snd kv) -> d = 44 \/ d = 125 ->
  run j_step (JIdle, toks) (json_pair kv ++ [d])
  = (JIdle, delim_tok d :: val_tok (snd kv) :: JColon :: JStr (fst kv) :: toks).
Proof.
  intros [Hk Hkp] Hv Hd. unfold json_pair. rewrite <- !app_assoc, run_app, string_run by assumption.
  change ([58; 32] ++ ?x) with (58 :: 32 :: x).
  change (run j_step (JIdle, ?t) (58 :: 32 :: ?x)) with (run j_step (JIdle, JColon :: t) x).
  apply value_delim; assumption.
Qed.

Lemma members_run o : o <> [] -> forall toks, obj_ok o ->
  run j_step (JIdle, toks) (join_with [44; 32] (map json_pair o) ++ [125])
  = (JIdle, JRbrace :: rev (member_tokens o) ++ toks).
Proof.
  induction o as [|kv o IH]; intros Hne toks Hok; [congruence|].
  inversion Hok as [|? ? [Hk Hv] Ho]; subst.
  destruct o as [|kv2 o'].
  - cbn [map join_with]. rewrite pair_delim; auto.
  - unfold member_tokens. cbn [map]. rewrite (join_with_cons [44; 32] (json_pair kv)), (join_with_cons [JComma]).
    rewrite <- !app_assoc. change ([44; 32] ++ ?x) with ([44] ++ 32 :: x).
    rewrite app_assoc, run_app, pair_delim; [|assumption..|left; reflexivity].
    change (run j_step (JIdle, ?t) (32 :: ?x)) with (run j_step (JIdle, t) x).
    rewrite (IH ltac:(discriminate)) by assumption. unfold member_tokens.
    rewrite !rev_app_distr. cbn [rev app map]. rewrite <- !app_assoc. reflexivity.
Qed.

Lemma obj_run o toks : obj_ok o ->
  run j_step (JIdle, toks) (json_obj o) = (JIdle, rev (obj_tokens o) ++ toks).
Proof.
  intro Hok. unfold json_obj, obj_tokens.
  change (run j_step (JIdle, toks) (123 :: ?x)) with (run j_step (JIdle, JLbrace :: toks) x).
  destruct o as [|kv o']; [reflexivity|].
  rewrite members_run; [|discriminate|assumption].
  cbn [rev]. rewrite rev_app_distr. cbn [rev app]. rewrite <- !app_assoc. reflexivity.
Qed.

Lemma objs_run objs : objs <> [] -> forall toks, Forall obj_ok objs ->
  run j_step (JIdle, toks) (join_with [44; 10] (map json_obj objs))
  = (JIdle, rev (join_with [JComma] (map obj_tokens objs)) ++ toks).
Proof.
  induction objs as [|o objs IH]; intros Hne toks Hok; [congruence|].
  inversion Hok as [|? ? Ho Hos]; subst.
  destruct objs as [|o2 objs'].
  - cbn [map join_with]. apply obj_run. assumption.
  - cbn [map]. rewrite (join_with_cons [44; 10] (json_obj o)), (join_with_cons [JComma]).
    rewrite run_app, obj_run by assumption.
    change (run j_step (JIdle, ?t) ([44; 10] ++ ?x)) with (run j_step (JIdle, JComma :: t) x).
    rewrite (IH ltac:(discriminate)) by assumption.
    rewrite !rev_app_distr. cbn [rev app map]. rewrite <- !app_assoc. reflexivity.
Qed.

Lemma doc_tokens_ok objs : objs <> [] -> Forall obj_ok objs ->
  json_tokens (json_doc objs) = Ok (doc_tokens objs).
Proof.
  intros Hne Hok. unfold json_tokens. fold (run j_step (JIdle, []) (json_doc objs)).
  destruct objs as [|o objs']; [congruence|]. unfold json_doc.
  change (run j_step (JIdle, []) (91 :: ?x)) with (run j_step (JIdle, [JLbr]) x).
  rewrite run_app, objs_run; [|discriminate|assumption].
  change (run j_step (JIdle, ?t) [93; 10]) with (JIdle, JRbr :: t).
  cbn [j_finish]. unfold doc_tokens. cbn [rev]. rewrite !rev_app_distr, rev_involutive. reflexivity.
Qed.

Lemma member_parse b cur done kv :
  run p_step (mkP (PKey b) cur done) [JStr (fst kv); JColon; val_tok (snd kv)]
  = mkP PAfterVal (kv :: cur) done.
Proof.
  change (run p_step (mkP (PKey b) cur done) [JStr (fst kv); JColon; val_tok (snd kv)])
    with (p_step (mkP (PVal (fst kv)) cur done) (val_tok (snd kv))).
  unfold p_step. cbn [p_mode p_cur p_done]. rewrite tok_value_val. destruct kv. reflexivity.
Qed.

Lemma members_parse o : o <> [] -> forall b cur done,
  run p_step (mkP (PKey b) cur done) (member_tokens o ++ [JRbrace])
  = mkP PAfterObj [] (rev (rev o ++ cur) :: done).
Proof.
  induction o as [|kv o IH]; intros Hne b cur done; [congruence|]. unfold member_tokens.
  destruct o as [|kv2 o'].
  - cbn [map join_with]. rewrite run_app, member_parse. reflexivity.
  - cbn [map]. rewrite join_with_cons, <- !app_assoc, run_app, member_parse.
    change (run p_step (mkP PAfterVal ?c done) ([JComma] ++ ?x)) with (run p_step (mkP (PKey false) c done) x).
    rewrite (IH ltac:(discriminate)). cbn [rev]. rewrite <- !app_assoc. reflexivity.
Qed.

Lemma obj_parse o b done :
  run p_step (mkP (PElem b) [] done) (obj_tokens o) = mkP PAfterObj [] (o :: done).
Proof.
  unfold obj_tokens.
  change (run p_step (mkP (PElem b) [] done) (JLbrace :: ?x)) with (run p_step (mkP (PKey true) [] done) x).
  destruct o as [|kv o']; [reflexivity|].
  rewrite members_parse by discriminate. rewrite app_nil_r, rev_involutive. reflexivity.
Qed.

Lemma objs_parse objs : objs <> [] -> forall b done,
  run p_step (mkP (PElem b) [] done) (join_with [JComma] (map obj_tokens objs) ++ [JRbr])
  = mkP PEnd [] (rev objs ++ done).
Proof.
  induction objs as [|o objs IH]; intros Hne b done; [congruence|].
  destruct objs as [|o2 objs'].
  - cbn [map join_with]. rewrite run_app, obj_parse. reflexivity.
  - cbn [map]. rewrite join_with_cons, <- !app_assoc, run_app, obj_parse.
    change (run p_step (mkP PAfterObj [] ?d) ([JComma] ++ ?x)) with (run p_step (mkP (PElem false) [] d) x).
    rewrite (IH ltac:(discriminate)). cbn [rev]. rewrite <- !app_assoc. reflexivity.
Qed.

Lemma doc_parse objs : objs <> [] -> json_parse (doc_tokens objs) = Ok objs.
Proof.
  intro Hne. unfold json_parse, doc_tokens.
  change (fold_left p_step (JLbr :: ?x) (mkP PDoc [] [])) with (run p_step (mkP (PElem true) [] []) x).
  rewrite objs_parse by assumption. cbn. rewrite app_nil_r, rev_involutive. reflexivity.
Qed.

Theorem json_roundtrip objs : Forall obj_ok objs -> json_read (json_doc objs) = Ok objs.
Proof.
  intro Hok. unfold json_read. destruct objs as [|o objs'] eqn:E; [reflexivity|].
  rewrite <- E in *. assert (objs <> []) by (subst; discriminate).
  rewrite doc_tokens_ok by assumption. apply doc_parse. assumption.
Qed.

(* the quoting mode after a text, None if a statement ends inside it *)
Fixpoint sql_scan (m : smode) (x : text) : option smode :=
  match x with
  | [] => Some m
  | c :: r =>
    match m with
    | SPlain => if c =? 59 then None
                else if c =? 39 then sql_scan SInS r
                else if c =? 34 then sql_scan SInD r
                else sql_scan SPlain r
    | SInS => sql_scan (if c =? 39 then SPlain else SInS) r
    | SInD => sql_scan (if c =? 34 then SPlain else SInD) r
    end
  end.

Lemma sql_scan_app a : forall m b,
  sql_scan m (a ++ b) = match sql_scan m a with Some m1 => sql_scan m1 b | None => None end.
Proof.
  induction a as [|c a IH]; intros m b; [reflexivity|].
  cbn [app sql_scan]. destruct m; [|apply IH..].
  destruct (c =? 59); [reflexivity|]. destruct (c =? 39); [apply IH|]. destruct (c =? 34); apply IH.
Qed.

(* the splitter keeps everything of a statement once it has begun *)
Lemma scan_run x : forall m m' cur done, sql_scan m x = Some m' -> cur <> [] ->
  run sql_step (mkS m cur done) x = mkS m' (rev x ++ cur) done.
Proof.
  induction x as [|c x IH]; intros m m' cur done Hs Hc; [injection Hs as <-; reflexivity|].
  cbn [sql_scan] in Hs. rewrite run_cons. cbn [rev]. rewrite <- app_assoc.
  destruct m; unfold sql_step; cbn [s_mode s_cur s_done app]; [|apply IH; easy..].
  destruct (c =? 59); [discriminate|]. destruct (c =? 39); [apply IH; easy|].
  destruct (c =? 34); [apply IH; easy|].
  destruct cur; [congruence|]. rewrite andb_false_r. apply IH; easy.
Qed.

Definition sql_plainc (c : Z) : bool := negb ((c =? 59) || (c =? 39) || (c =? 34)).

Lemma scan_plain w : forallb sql_plainc w = true -> sql_scan SPlain w = Some SPlain.
Proof.
  induction w as [|c w IH]; intro H; [reflexivity|].
  cbn [forallb] in H. apply andb_true_iff in H. destruct H as [Hc Hw]. unfold sql_plainc in Hc.
  cbn [sql_scan]. replace (c =? 59) with false by lia. replace (c =? 39) with false by lia.
  replace (c =? 34) with false by lia. auto.
Qed.

Lemma scan_dq s : sql_scan SInS (sql_dq s) = Some SInS.
Proof.
  induction s as [|c s IH]; [reflexivity|]. cbn [sql_dq].
  destruct (Z.eqb_spec c 39) as [->|N]; [exact IH|]. cbn [sql_scan]. apply Z.eqb_neq in N. rewrite N. exact IH.
Qed.

Lemma scan_ident t : forallb (fun c => negb (c =? 34)) t = true ->
  sql_scan SInD (t ++ [34]) = Some SPlain.
Proof.
  induction t as [|c t IH]; intro H; [reflexivity|].
  cbn [forallb] in H. apply andb_true_iff in H. destruct H as [Hc Ht].
  apply negb_true_iff in Hc. cbn [app sql_scan]. rewrite Hc. auto.
Qed.

Definition sql_cell_ok (c : cell) : Prop :=
  match c with
  | CNull | CNum _ => True
  | CText s => forallb (fun c => negb (c =? 0)) s = true
  | CBool _ => False
  end.

Definition sql_row_ok (r : text * list cell) : Prop :=
  forallb (fun c => negb (c =? 34)) (fst r) = true /\ snd r <> [] /\ Forall sql_cell_ok (snd r).

Lemma sql_cut_id s : forallb (fun c => negb (c =? 0)) s = true -> sql_cut s = s.
Proof.
  induction s as [|c s IH]; intro H; [reflexivity|].
  cbn [forallb] in H. apply andb_true_iff in H. destruct H as [Hc Hs].
  apply negb_true_iff in Hc. cbn [sql_cut]. rewrite Hc, IH; auto.
Qed.

Lemma scan_lit c : sql_cell_ok c -> sql_scan SPlain (sql_lit c) = Some SPlain.
Proof.
  destruct c as [|b|z|s]; cbn [sql_cell_ok sql_lit]; intro H; [reflexivity|destruct H| |].
  - apply scan_plain, dec_text_forall; [reflexivity|]. unfold sql_plainc, is_digit. lia.
  - change (sql_scan SPlain (39 :: ?x)) with (sql_scan SInS x). rewrite sql_scan_app, scan_dq. reflexivity.
Qed.

Lemma scan_lits cells : Forall sql_cell_ok cells ->
  sql_scan SPlain (join_with [44] (map sql_lit cells)) = Some SPlain.
Proof.
  induction cells as [|c cells IH]; intro H; [reflexivity|].
  inversion H as [|? ? Hc Hcs]; subst.
  destruct cells as [|c2 cells']; [apply scan_lit, Hc|].
  cbn [map]. rewrite (join_with_cons [44] (sql_lit c)), sql_scan_app, scan_lit by assumption. exact (IH Hcs).
Qed.

Definition insert_tail (table : text) (cells : list cell) : text :=
  table ++ [34] ++ values_prefix ++ join_with [44] (map sql_lit cells) ++ [41].

Lemma sql_insert_eq table cells : sql_insert table cells = insert_prefix ++ insert_tail table cells.
Proof. unfold sql_insert, insert_prefix, insert_tail. rewrite <- ?app_assoc. reflexivity. Qed.

Lemma scan_insert r : sql_row_ok r ->
  sql_scan SPlain (sql_insert (fst r) (snd r)) = Some SPlain.
Proof.
  intros (Ht & _ & Hc). rewrite sql_insert_eq, sql_scan_app.
  change (sql_scan SPlain insert_prefix) with (Some SInD). cbv iota. unfold insert_tail.
  rewrite app_assoc, sql_scan_app, scan_ident, sql_scan_app by assumption.
  change (sql_scan SPlain values_prefix) with (Some SPlain). cbv iota.
  rewrite sql_scan_app, scan_lits by assumption. reflexivity.
Qed.

Lemma stmt_run r done : sql_row_ok r ->
  run sql_step (mkS SPlain [] done) (sql_insert (fst r) (snd r) ++ [59; 10])
  = mkS SPlain [] (sql_insert (fst r) (snd r) :: done).
Proof.
  intro Hok. pose proof (scan_insert r Hok) as Hscan. rewrite sql_insert_eq in *.
  set (rest := tl insert_prefix ++ insert_tail (fst r) (snd r)) in *.
  change (insert_prefix ++ _) with (73 :: rest) in *.
  change (sql_scan SPlain (73 :: rest)) with (sql_scan SPlain rest) in Hscan.
  change (run sql_step (mkS SPlain [] done) ((73 :: rest) ++ [59; 10]))
    with (run sql_step (mkS SPlain [73] done) (rest ++ [59; 10])).
  rewrite run_app, (scan_run rest SPlain SPlain [73] done Hscan) by discriminate.
  change (run sql_step ?s [59; 10]) with (sql_step (sql_step s 59) 10).
  unfold sql_step at 2. cbn [s_mode s_cur s_done]. change (59 =? 59) with true. cbv iota.
  unfold sql_step. cbn [s_mode s_cur s_done]. rewrite rev_app_distr, rev_involutive. reflexivity.
Qed.

Lemma split_inserts rows : Forall sql_row_ok rows ->
  sql_split (sql_inserts rows) = Ok (map (fun r => sql_insert (fst r) (snd r)) rows).
Proof.
  intro H. unfold sql_split. fold (run sql_step (mkS SPlain [] []) (sql_inserts rows)).
  assert (R : forall done, run sql_step (mkS SPlain [] done) (sql_inserts rows)
                = mkS SPlain [] (rev (map (fun r => sql_insert (fst r) (snd r)) rows) ++ done)).
  { induction H as [|r rows Hr Hrs IH]; intros done; [reflexivity|].
    unfold sql_inserts. cbn [flat_map]. fold (sql_inserts rows).
    rewrite run_app, stmt_run, IH by assumption. cbn [map rev]. rewrite <- app_assoc. reflexivity. }
  rewrite R. cbn [s_mode s_cur s_done]. rewrite app_nil_r, rev_involutive. reflexivity.
Qed.

Lemma strip_prefix_app p s : strip_prefix p (p ++ s) = Some s.
Proof. induction p as [|c p IH]; [reflexivity|]. cbn. rewrite Z.eqb_refl. exact IH. Qed.

Lemma read_ident_ok t rest : forallb (fun c => negb (c =? 34)) t = true ->
  read_ident (t ++ 34 :: rest) = Some (t, rest).
Proof.
  induction t as [|c t IH]; intro H; [reflexivity|].
  cbn [forallb] in H. apply andb_true_iff in H. destruct H as [Hc Ht].
  apply negb_true_iff in Hc. cbn [app read_ident]. rewrite Hc, IH by assumption. reflexivity.
Qed.

Lemma lword_run w : forall acc cells, forallb (fun c => is_digit c || (c =? 45)) w = true ->
  run l_step (LWord acc, cells) w = (LWord (rev w ++ acc), cells).
Proof.
  induction w as [|c w IH]; intros acc cells H; [reflexivity|].
  cbn [forallb] in H. apply andb_true_iff in H. destruct H as [Hc Hw].
  cbn [rev]. rewrite <- app_assoc, <- (IH _ _ Hw), run_cons. f_equal.
  unfold l_step, is_digit in *. replace ((c =? 44) || (c =? 41)) with false by lia. reflexivity.
Qed.

Lemma lstr_run s : forall acc cells,
  run l_step (LStr acc, cells) (sql_dq s) = (LStr (rev s ++ acc), cells).
Proof.
  induction s as [|c s IH]; intros acc cells; [reflexivity|].
  cbn [sql_dq rev]. rewrite <- app_assoc, <- IH. destruct (Z.eqb_spec c 39) as [->|N]; [reflexivity|].
  rewrite run_cons. f_equal. unfold l_step. apply Z.eqb_neq in N. rewrite N. reflexivity.
Qed.

Lemma lit_word_num z : lit_word (dec_text z) = Some (CNum z).
Proof.
  unfold lit_word. rewrite int_roundtrip.
  destruct (dec_text_head z) as (c & r & -> & Hc). unfold text_eqb, is_digit in *. cbn [list_eqb].
  replace (c =? 78) with false by lia. reflexivity.
Qed.

Lemma lit_delim c d cells : sql_cell_ok c -> d = 44 \/ d = 41 ->
  run l_step (LStart, cells) (sql_lit c ++ [d]) = l_after (c :: cells) d.
Proof.
  intros Hc Hd.
  assert (Hdd : ((d =? 44) || (d =? 41)) = true) by lia.
  assert (Hd39 : (d =? 39) = false) by lia.
  destruct c as [|b|z|s]; cbn [sql_cell_ok sql_lit] in *; [|destruct Hc| |].
  - change (run l_step (LStart, cells) ([78; 85; 76; 76] ++ [d])) with (l_step (LWord [76; 76; 85; 78], cells) d).
    unfold l_step. rewrite Hdd. reflexivity.
  - assert (Hch : forallb (fun c => is_digit c || (c =? 45)) (dec_text z) = true)
      by (apply dec_text_forall; [reflexivity|intros ? ->; reflexivity]).
    pose proof (lit_word_num z) as Hw. destruct (dec_text_head z) as (c & r & E & Hc0).
    rewrite E in *. cbn [forallb] in Hch. apply andb_true_iff in Hch. destruct Hch as [_ Hr].
    rewrite <- app_comm_cons, run_cons.
    replace (l_step (LStart, cells) c) with (LWord [c], cells).
    + rewrite run_app, lword_run by assumption. cbn [run fold_left]. unfold l_step. rewrite Hdd.
      replace (rev (rev r ++ [c])) with (c :: r) by (rewrite rev_app_distr, rev_involutive; reflexivity).
      rewrite Hw. reflexivity.
    + unfold l_step, is_digit in *. replace (c =? 39) with false by lia.
      replace ((48 <=? c) && (c <=? 57) || (c =? 45) || (c =? 78)) with true by lia. reflexivity.
  - rewrite sql_cut_id by assumption.
    change (run l_step (LStart, cells) ((39 :: ?x ++ [39]) ++ [d])) with (run l_step (LStr [], cells) ((x ++ [39]) ++ [d])).
    rewrite <- app_assoc, run_app, lstr_run, app_nil_r.
    change (run l_step (LStr (rev s), cells) ([39] ++ [d])) with (l_step (LStrQ (rev s), cells) d).
    unfold l_step. rewrite Hd39, rev_involutive. reflexivity.
Qed.

Lemma lits_run cs : cs <> [] -> forall cells, Forall sql_cell_ok cs ->
  run l_step (LStart, cells) (join_with [44] (map sql_lit cs) ++ [41]) = (LDone, rev cs ++ cells).
Proof.
  induction cs as [|c cs IH]; intros Hne cells H; [congruence|].
  inversion H as [|? ? Hc Hcs]; subst.
  destruct cs as [|c2 cs'].
  - cbn [map join_with]. rewrite lit_delim; auto.
  - cbn [map]. rewrite (join_with_cons [44] (sql_lit c)), <- !app_assoc, app_assoc, run_app, lit_delim by auto.
    change (l_after (c :: cells) 44) with (LStart, c :: cells).
    rewrite (IH ltac:(discriminate)) by assumption. cbn [rev]. rewrite <- !app_assoc. reflexivity.
Qed.

Lemma parse_insert r : sql_row_ok r ->
  sql_parse_stmt (sql_insert (fst r) (snd r)) = Ok (Some r).
Proof.
  intros (Ht & Hne & Hc). unfold sql_parse_stmt. rewrite sql_insert_eq, strip_prefix_app.
  unfold insert_tail. change ([34] ++ ?x) with (34 :: x).
  rewrite read_ident_ok, strip_prefix_app by assumption.
  unfold sql_values. fold (run l_step (LStart, []) (join_with [44] (map sql_lit (snd r)) ++ [41])).
  rewrite lits_run by assumption. rewrite app_nil_r, rev_involutive. destruct r. reflexivity.
Qed.

Lemma keep_some_map {A} (l : list A) : keep_some (map Some l) = l.
Proof. induction l; cbn; congruence. Qed.

Theorem sql_roundtrip rows : Forall sql_row_ok rows -> sql_read (sql_inserts rows) = Ok rows.
Proof.
  intro H. unfold sql_read. rewrite split_inserts by assumption. cbn [bind].
  replace (map_result _ _) with (Ok (map Some rows)); [cbn [bind]; rewrite keep_some_map; reflexivity|].
  induction H as [|r rows Hr Hrs IH]; [reflexivity|].
  cbn [map map_result]. rewrite parse_insert, <- IH by assumption. reflexivity.
Qed.

(* finding C08-sql-script-nul: SQLite's quote() ends the text at a NUL character: different values, same script *)
Lemma sql_lit_not_injective : sql_lit (CText [97; 0; 98]) = sql_lit (CText [97]).
Proof. vm_compute. reflexivity. Qed.

Theorem json_file_faithful rows t : json_text rows = Ok t ->
  exists objs, json_objects rows = Ok objs /\ (Forall obj_ok objs -> json_read t = Ok objs).
Proof.
  unfold json_text. destruct (json_objects rows) as [objs|]; cbn [bind]; [|discriminate].
  intros [= <-]. exists objs. split; [reflexivity|apply json_roundtrip].
Qed.

Lemma memo_find_sound keq enc c v x :
  (forall a b, keq a b = true -> enc a = enc b) ->
  cache_sound enc c -> memo_find keq v c = Some x -> x = enc v.
Proof.
  intros Hk. induction c as [|[k y] r IH]; intros Hs H; cbn [memo_find] in H; [discriminate|].
  destruct (keq k v) eqn:E.
  - inversion H; subst. rewrite <- (Hk _ _ E). apply Hs. left; reflexivity.
  - apply IH; [|exact H]. intros k' x' Hin. apply Hs. right; exact Hin.
Qed.

Lemma memo_run_faithful keq enc evict :
  (forall a b, keq a b = true -> enc a = enc b) ->
  (forall c, incl (evict c) c) ->
  forall vs c, cache_sound enc c ->
    fst (memo_run keq enc evict c vs) = map enc vs /\ cache_sound enc (snd (memo_run keq enc evict c vs)).
Proof.
  intros Hk He. induction vs as [|v r IH]; intros c Hs; cbn [memo_run map].
  - split; [reflexivity|exact Hs].
  - unfold memo_cell. destruct (memo_find keq v c) eqn:F.
    + destruct (memo_run keq enc evict c r) as [xs c2] eqn:R.
      specialize (IH c Hs). rewrite R in IH. cbn [fst snd] in *. destruct IH as [I1 I2].
      split; [|exact I2]. rewrite (memo_find_sound _ _ _ _ _ Hk Hs F), I1. reflexivity.
    + assert (Hs1 : cache_sound enc (evict ((v, enc v) :: c))).
      { intros k x Hin. apply He in Hin. destruct Hin as [Hin|Hin]; [inversion Hin; reflexivity|apply Hs; exact Hin]. }
      destruct (memo_run keq enc evict (evict ((v, enc v) :: c)) r) as [xs c2] eqn:R.
      specialize (IH _ Hs1). rewrite R in IH. cbn [fst snd] in *. destruct IH as [I1 I2].
      split; [|exact I2]. rewrite I1. reflexivity.
Qed.
