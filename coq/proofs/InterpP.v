(* Two notions carry every later file about the interpreter: [touches] (all that expressions,
   formulas, references and flattening can do to the state) and [exec] (the evaluator as a relation,
   so that invariants are inductions on derivations instead of on fuel). *)
From Coq Require Import ZArith List Lia Bool Permutation ZifyBool.
From SFV Require Import Base Interp.
From SFV.P Require Import BaseP.
Import ListNotations. Open Scope Z_scope.

Tactic Notation "dbind" hyp(H) "as" simple_intropattern(pat) :=
  match type of H with
  | bind ?X _ = _ => let E := fresh "E" in destruct X as [pat|] eqn:E; cbn [bind] in H; [|discriminate H]
  end.

Lemma lookup_assign_same {A} k (v : A) l : lookup k (assign k v l) = Some v.
Proof.
  induction l as [|[k' v'] r IH]; cbn [assign lookup].
  - rewrite String.eqb_refl. reflexivity.
  - destruct (String.eqb k k') eqn:E; cbn [lookup]; rewrite ?String.eqb_refl, ?E; auto.
Qed.

Lemma lookup_assign_other {A} k k2 (v : A) l : k2 <> k -> lookup k2 (assign k v l) = lookup k2 l.
Proof.
  intros Hne. apply String.eqb_neq in Hne.
  induction l as [|[k' v'] r IH]; cbn [assign lookup]; [rewrite Hne; reflexivity|].
  destruct (String.eqb_spec k k') as [<-|_]; cbn [lookup]; [rewrite Hne|rewrite IH]; reflexivity.
Qed.

Lemma lookup_In {A k} {v : A} {l} : lookup k l = Some v -> exists k', In (k', v) l.
Proof.
  induction l as [|[k' v'] r IH]; cbn [lookup]; [discriminate|].
  destruct (String.eqb k k').
  - intros H. injection H as ->. exists k'. left. reflexivity.
  - intros H. destruct (IH H) as (k2 & Hin). exists k2. right. exact Hin.
Qed.

Lemma Forall_assign {A} (P : string * A -> Prop) k v l :
  Forall P l -> P (k, v) -> Forall P (assign k v l).
Proof.
  intros Hl Hp. induction Hl as [|[k' v'] r Hx Hr IH]; cbn [assign].
  - constructor; [exact Hp|constructor].
  - destruct (String.eqb k k'); constructor; assumption.
Qed.

(* Expressions, formulas, references and flattening change the state in one way only: reading
   the id of a forward-reference slot allocates it.  [touches s s']: s' is reached from s by
   such allocations.  A relation that is reflexive, transitive and holds of [touch_slot]
   therefore holds of all of them, by induction on [touches]. *)
Inductive touches : st -> st -> Prop :=
| touches_refl s : touches s s
| touches_step s s1 n s2 i : touches s s1 -> touch_slot s1 n = Ok (s2, i) -> touches s s2.

Lemma touches_trans a b c : touches a b -> touches b c -> touches a c.
Proof. intros H1 H2. induction H2; eauto using touches_step. Qed.

Lemma touch_slot_touches {s n s' i} : touch_slot s n = Ok (s', i) -> touches s s'.
Proof. intros H. econstructor; [apply touches_refl|exact H]. Qed.

Lemma eval_expr_touches e x : forall s s' v, eval_expr e x s = Ok (s', v) -> touches s s'.
Proof.
  induction x as [z|n|a IHa f|a IHa b IHb|a IHa b IHb|a IHa b IHb]; intros s s' v H; cbn [eval_expr] in H.
  (* goals 4-6: the binary operators.  Their 7 x 7 table of operand kinds holds the same error some
     forty times: it is given a name first, so that the steps do not carry forty string literals. *)
  4-6: set (type_error := dge "TypeError") in H;
    dbind H as [s1 v1]; dbind H as [s2 v2]; apply IHa in E; apply IHb in E0;
    destruct v1; try discriminate; destruct v2; try discriminate;
    injection H as <- _; eapply touches_trans; eassumption.
  - injection H as <- _. apply touches_refl.
  - dbind H as o. destruct o; injection H as <- _; apply touches_refl.
  - dbind H as [s1 v1]. apply IHa in E.
    destruct v1; try discriminate;
      try (destruct (py_own_attr f); [discriminate|]);
      try (injection H as <- _; exact E);
      try (dbind H as w0; injection H as <- _; exact E).
    + destruct (nth_error (heap s1) h); [|discriminate].
      destruct (row_attr c f); injection H as <- _; exact E.
    + destruct (String.eqb f "id"); [|discriminate]. dbind H as [s2 i].
      injection H as <- _. econstructor; eassumption.
Qed.

Lemma render_pieces_touches e ps : forall s s' t, render_pieces e ps s = Ok (s', t) -> touches s s'.
Proof.
  induction ps as [|p ps IH]; intros s s' t H; cbn [render_pieces] in H.
  - injection H as <- _. apply touches_refl.
  - destruct p as [tx|x].
    + dbind H as [s1 rest]. injection H as <- _. eauto.
    + dbind H as [s1 v]. dbind H as w0. dbind H as [s2 rest]. injection H as <- _.
      apply eval_expr_touches in E. apply IH in E1. eapply touches_trans; eassumption.
Qed.

Lemma render_formula_touches {e ps s s' v} : render_formula e ps s = Ok (s', v) -> touches s s'.
Proof.
  unfold render_formula. intros H.
  destruct (version e =? 3).
  - destruct ps as [|[tx|x] [|p2 r]];
      try (dbind H as [s1 t]; dbind H as w0; injection H as <- _;
           apply render_pieces_touches in E; exact E).
    dbind H as [s1 w]. apply eval_expr_touches in E.
    destruct w; try discriminate; try (injection H as <- _; exact E).
    dbind H as w0. injection H as <- _. exact E.
  - dbind H as [s1 t]. dbind H as w0. injection H as <- _.
    apply render_pieces_touches in E. exact E.
Qed.

Lemma getattr_path_touches {s v p s' w} : getattr_path s v p = Ok (s', w) -> touches s s'.
Proof.
  unfold getattr_path. intros E. destruct v; try discriminate.
  - destruct (nth_error (heap s) h); [|discriminate].
    destruct (row_attr c p); [|discriminate]. injection E as <- _. apply touches_refl.
  - destruct (String.eqb p "id"); [|discriminate]. dbind E as [s2 i].
    injection E as <- _. eapply touch_slot_touches. exact E0.
  - dbind E as w0. injection E as <- _. apply touches_refl.
Qed.

Lemma follow_path_touches parts : forall s v s' w, follow_path s v parts = Ok (s', w) -> touches s s'.
Proof.
  induction parts as [|p r IH]; intros s v s' w H; cbn [follow_path] in H.
  - injection H as <- _. apply touches_refl.
  - dbind H as [s1 w1]. apply IH in H. apply getattr_path_touches in E. eapply touches_trans; eassumption.
Qed.

Lemma reference_touches {e path s s' v} : reference e path s = Ok (s', v) -> touches s s'.
Proof.
  unfold reference. intros H.
  destruct (split_dot path) as [|first parts]; [discriminate|].
  dbind H as o. destruct o as [v0|]; [|destruct parts; discriminate].
  dbind H as [s1 target]. apply follow_path_touches in E0.
  destruct target; try discriminate; try (injection H as <- _; exact E0).
  dbind H as [s2 i]. injection H as <- _. econstructor; eassumption.
Qed.

Lemma flatten_fields_touches fs : forall s s' l, flatten_fields s fs = Ok (s', l) -> touches s s'.
Proof.
  induction fs as [|[n v] r IH]; intros s s' l H; cbn [flatten_fields] in H.
  - injection H as <- _. apply touches_refl.
  - destruct (hidden n); [eauto|].
    dbind H as [s1 o]. dbind H as [s2 rest]. injection H as <- _.
    apply IH in E0. eapply touches_trans; [|exact E0].
    destruct v; try discriminate; try (injection E as <- _; apply touches_refl).
    + destruct (nth_error (heap s) h); [|discriminate]. injection E as <- _. apply touches_refl.
    + destruct (lookup name (slots s)); [|discriminate]. dbind E as [s3 i].
      injection E as <- _. eapply touch_slot_touches. exact E1.
Qed.

Lemma touches_only {s s'} : touches s s' -> s' = upd_slots (upd_ids s (ids s')) (slots s').
Proof.
  induction 1 as [s|s s1 n s2 i _ IH H]; [destruct s; reflexivity|].
  unfold touch_slot in H. destruct (lookup n (slots s1)) as [sl|]; [|discriminate].
  destruct (s_alloc sl); injection H as <- _; [exact IH|].
  rewrite IH. reflexivity.
Qed.

Lemma touches_out {s s'} : touches s s' -> out s' = out s.
Proof. intros H. rewrite (touches_only H). reflexivity. Qed.

Lemma touches_heap {s s'} : touches s s' -> heap s' = heap s.
Proof. intros H. rewrite (touches_only H). reflexivity. Qed.

Definition clean_row (r : orow) : Prop :=
  hidden (fst r) = false /\ Forall (fun nv => hidden (fst nv) = false) (snd r).

Lemma flatten_fields_spec fs : forall s s' l,
  flatten_fields s fs = Ok (s', l) -> map fst l = filter (fun n => negb (hidden n)) (map fst fs).
Proof.
  induction fs as [|[n v] r IH]; intros s s' l H; cbn [flatten_fields] in H.
  - injection H as _ <-. reflexivity.
  - cbn [map filter fst]. destruct (hidden n); cbn [negb]; [eapply IH, H|].
    dbind H as [s1 o]. dbind H as [s2 rest]. injection H as _ <-.
    cbn [map fst]. f_equal. eapply IH, E0.
Qed.

Lemma filter_not_hidden l :
  Forall (fun n => hidden n = false) (filter (fun n => negb (hidden n)) l).
Proof.
  apply Forall_forall. intros x Hx. apply filter_In in Hx. destruct Hx as [_ Hx].
  destruct (hidden x); [discriminate|reflexivity].
Qed.

Lemma write_row_cases {s h s'} :
  write_row s h = Ok s' ->
  exists c, nth_error (heap s) h = Some c /\
    (hidden (c_table c) = true /\ s' = s \/
     hidden (c_table c) = false /\ exists s1 fs, flatten_fields s (c_fields c) = Ok (s1, fs) /\
       s' = upd_out s1 ((c_table c, ("id"%string, OInt (c_id c)) :: fs) :: out s1)).
Proof.
  unfold write_row. destruct (nth_error (heap s) h) as [c|]; [|discriminate]. intros H. exists c. split; [reflexivity|].
  destruct (hidden (c_table c)); [injection H as <-; auto|].
  dbind H as [s1 fs]. injection H as <-. right. eauto.
Qed.

Lemma write_row_spec s h s' :
  write_row s h = Ok s' ->
  out s' = out s \/ exists r, out s' = r :: out s /\ clean_row r /\
    exists c, nth_error (heap s) h = Some c /\ fst r = c_table c /\
              map fst (snd r) = "id"%string :: filter (fun n => negb (hidden n)) (map fst (c_fields c)).
Proof.
  intros H. destruct (write_row_cases H) as (c & Hc & [[_ ->]|(Ht & s1 & fs & E & ->)]); [left; reflexivity|].
  pose proof (flatten_fields_spec _ _ _ _ E) as Hm. apply flatten_fields_touches, touches_out in E.
  right. eexists. cbn [out upd_out]. split; [rewrite E; reflexivity|]. split.
  - split; [exact Ht|]. constructor; [reflexivity|].
    apply (Forall_map fst (fun n => hidden n = false)). rewrite Hm. apply filter_not_hidden.
  - exists c. cbn [fst snd map]. rewrite Hm. auto.
Qed.

Lemma write_row_touches {s h s'} : write_row s h = Ok s' -> exists s1 o, touches s s1 /\ s' = upd_out s1 o.
Proof.
  intros H. destruct (write_row_cases H) as (c & _ & [[_ ->]|(_ & s1 & fs & E & ->)]).
  - exists s, (out s). split; [apply touches_refl|destruct s; reflexivity].
  - exists s1. eexists. split; [eapply flatten_fields_touches, E|reflexivity].
Qed.

(* The simple state updates change one component each, or two.  The [_only] equations (and
   [touches_only] above) say so by taking that component from the updated state itself; rewriting
   with one turns any other projection of the updated state into a computation. *)

Lemma set_var_only s n v : set_var s n v = upd_frames s (frames (set_var s n v)).
Proof. destruct s as [? ? ? ? ? ? ? [|f r] ? ? ?]; reflexivity. Qed.
Lemma set_obj_only s h : set_obj s h = upd_frames s (frames (set_obj s h)).
Proof. destruct s as [? ? ? ? ? ? ? [|f r] ? ? ?]; reflexivity. Qed.
Lemma pop_frame_only s : pop_frame s = upd_frames s (frames (pop_frame s)).
Proof. destruct s as [? ? ? ? ? ? ? [|f r] ? ? ?]; reflexivity. Qed.

Lemma set_field_only s h n v : set_field s h n v = upd_heap s (heap (set_field s h n v)).
Proof. unfold set_field. destruct (nth_error (heap s) h); destruct s; reflexivity. Qed.

Lemma remember_deps_only fs : forall s t, remember_deps s t fs = upd_deps s (deps (remember_deps s t fs)).
Proof.
  unfold remember_deps. induction fs as [|[n v] r IH]; intros s t; cbn [fold_left]; [destruct s; reflexivity|].
  rewrite IH. destruct (target_table s v); [destruct (existsb _ _)|]; reflexivity.
Qed.

Lemma consume_for_spec {s n T s' i} :
  consume_for s n T = Some (s', i) ->
  exists sl, lookup n (slots s) = Some sl /\ s_alloc sl = Some i /\ s_consumed sl = false /\
             s_table sl = T /\ s' = upd_slots s (assign n (mkSlot (s_table sl) (Some i) true) (slots s)).
Proof.
  unfold consume_for. destruct (lookup n (slots s)) as [sl|]; [|discriminate].
  destruct (s_alloc sl) as [j|] eqn:Ha; [|discriminate].
  destruct (negb (s_consumed sl) && String.eqb (s_table sl) T) eqn:E; [|discriminate].
  intros H. injection H as <- <-. apply andb_true_iff in E. destruct E as [E1 E2].
  exists sl. splits; auto.
  - destruct (s_consumed sl); [discriminate|reflexivity].
  - apply String.eqb_eq. exact E2.
Qed.

Lemma new_row_id_cases {s T nick s1 id} :
  new_row_id s T nick = (s1, id) ->
  (exists n, consume_for s n T = Some (s1, id)) \/ generate_id s T = (s1, id).
Proof.
  unfold new_row_id. intros H.
  destruct (match nick with Some n => consume_for s n T | None => None end) as [p|] eqn:E1.
  { subst p. destruct nick as [n|]; [eauto|discriminate]. }
  destruct (consume_for s T T) as [p|] eqn:E2; [subst p; eauto|auto].
Qed.

Lemma new_row_id_only {s T nick s1 id} :
  new_row_id s T nick = (s1, id) -> s1 = upd_slots (upd_ids s (ids s1)) (slots s1).
Proof.
  intros H. destruct (new_row_id_cases H) as [(n & Hc)|Hg].
  - destruct (consume_for_spec Hc) as (sl & _ & _ & _ & _ & ->). destruct s; reflexivity.
  - injection Hg as <- _. destruct s; reflexivity.
Qed.

(* ObjectTemplate._generate_row up to the evaluation of the fields: the row gets a cell without fields,
   becomes the current object and is registered under its names *)
Definition new_row (s : st) (T : string) (nick : option string) (once : bool) (id i : Z) : st :=
  register_object (set_obj (upd_heap s (heap s ++ [mkCell T id i []])) (length (heap s)))
                  (length (heap s)) T nick once.

Definition upd_scope (s s' : st) : st :=
  mkSt (ids s) (slots s) (nick_objs s') (last_by_table s') (p_nicks s') (p_tables s') (heap s) (frames s')
       (deps s) (out s) (rnd s).

Lemma register_object_only s h T nick once :
  register_object s h T nick once = upd_scope s (register_object s h T nick once).
Proof. destruct s, nick, once; reflexivity. Qed.

Lemma new_row_only s T nick once id i :
  new_row s T nick once id i = upd_scope (upd_heap s (heap s ++ [mkCell T id i []])) (new_row s T nick once id i).
Proof. destruct s as [? ? ? ? ? ? ? [|f r] ? ? ?], nick, once; reflexivity. Qed.

Lemma new_row_frames s T nick once id i :
  frames (new_row s T nick once id i) =
  match frames s with f :: r => mkFrame (f_vars f) (Some (length (heap s))) :: r | [] => [] end.
Proof. destruct s as [? ? ? ? ? ? ? [|f r] ? ? ?], nick, once; reflexivity. Qed.

Definition rnd_only (s s' : st) : Prop := exists x, s' = upd_rnd s x.

Lemma remember_history_rnd {e s t nick id s'} :
  remember_history e s t nick id = Ok s' -> rnd_only s s'.
Proof.
  unfold remember_history. intros H.
  destruct (existsb (String.eqb t) (hist_tables e)); injection H as <-; [eexists; reflexivity|].
  exists (rnd s). destruct s; reflexivity.
Qed.

Lemma random_reference_rnd {e to s s' v} :
  random_reference e to s = Ok (s', v) -> rnd_only s s'.
Proof.
  unfold random_reference. intros H.
  destruct (negb (rr_ok e)); [discriminate|].
  dbind H as [[[nick table] lo] hi].
  destruct (draws (rnd s)) as [|r rest]; [discriminate|].
  destruct ((0 <=? r) && (r <? hi - lo + 1)); [|discriminate].
  dbind H as [t i]. injection H as <- _. eexists. reflexivity.
Qed.

Lemma rnd_only_out s s' : rnd_only s s' -> out s' = out s.
Proof. intros [x ->]. reflexivity. Qed.

Lemma remember_only {e s T fs T' nick id s'} :
  remember_history e (remember_deps s T fs) T' nick id = Ok s' -> exists d x, s' = upd_rnd (upd_deps s d) x.
Proof. intros H. destruct (remember_history_rnd H) as [x ->]. rewrite remember_deps_only. eauto. Qed.

(* [exec e tk s s' r]: the big-step reading of [run], one rule per successful branch.  Invariants
   of the evaluator are proved by induction on it, which spares them the fuel and the error
   branches; [run_exec] below is the only induction on fuel they need. *)
Inductive exec (e : env) : task -> st -> st -> ret -> Prop :=
| ex_stmts_nil c s : exec e (TStmts [] c) s s RUnit
| ex_stmts_cons x l c s s1 r1 s2 r2 :
    exec e (TStmt x c) s s1 r1 -> exec e (TStmts l c) s1 s2 r2 -> exec e (TStmts (x :: l) c) s s2 r2
| ex_once_skip t c s : t_once t && c = true -> exec e (TStmt (SObj t) c) s s RUnit
| ex_obj t c s s1 r :
    t_once t && c = false -> exec e (TRows t) s s1 r -> exec e (TStmt (SObj t) c) s s1 RUnit
| ex_var name d c s s1 r :
    exec e (TField d) (push_frame s) s1 r ->
    exec e (TStmt (SVar name d) c) s (set_var (pop_frame s1) name (ret_value r)) RUnit
| ex_rows_one t s s2 r :
    t_count t = None -> exec e (TLoop t 0 1 None) (push_frame s) s2 r -> exec e (TRows t) s (pop_frame s2) r
| ex_rows_count t d s s1 r0 cnt s2 r :
    t_count t = Some d -> exec e (TField d) (push_frame s) s1 r0 -> count_of (ret_value r0) = Ok cnt ->
    exec e (TLoop t 0 cnt None) s1 s2 r -> exec e (TRows t) s (pop_frame s2) r
| ex_loop_done t i cnt last s : cnt <= i -> exec e (TLoop t i cnt last) s s (RRow last)
| ex_loop_step t i cnt last s s1 h s2 r :
    i < cnt -> exec e (TRow t i) (set_var s "child_index" (VInt i)) s1 (RRow h) ->
    exec e (TLoop t (i + 1) cnt h) s1 s2 r -> exec e (TLoop t i cnt last) s s2 r
| ex_row t i s s1 id s4 r4 c s5 s6 s7 r7 :
    new_row_id s (t_table t) (t_nick t) = (s1, id) ->
    exec e (TFields (length (heap s1)) (t_fields t)) (new_row s1 (t_table t) (t_nick t) (t_once t) id i) s4 r4 ->
    nth_error (heap s4) (length (heap s1)) = Some c ->
    remember_history e (remember_deps s4 (t_table t) (c_fields c)) (t_table t) (t_nick t) id = Ok s5 ->
    write_row s5 (length (heap s1)) = Ok s6 ->
    exec e (TStmts (t_friends t) true) s6 s7 r7 ->
    exec e (TRow t i) s s7 (RRow (Some (length (heap s1))))
| ex_fields_nil h s : exec e (TFields h []) s s RUnit
| ex_fields_cons h name d fs s s1 v s2 r :
    String.eqb name "id" = false -> exec e (TField d) s s1 v ->
    exec e (TFields h fs) (set_field s1 h name (ret_value v)) s2 r ->
    exec e (TFields h ((name, d) :: fs)) s s2 r
| ex_lit_int z s : exec e (TField (FLitInt z)) s s (RVal (VInt z))
| ex_lit_str x v s :
    (if version e =? 3 then Ok (VStr x) else look_for_number x) = Ok v -> exec e (TField (FLitStr x)) s s (RVal v)
| ex_formula ps s s1 v : render_formula e ps s = Ok (s1, v) -> exec e (TField (FFormula ps)) s s1 (RVal v)
| ex_ref path s s1 v : reference e path s = Ok (s1, v) -> exec e (TField (FRef path)) s s1 (RVal v)
| ex_nested t s s1 r : exec e (TRows t) s s1 r -> exec e (TField (FNested t)) s s1 r
| ex_randref to s s1 v : random_reference e to s = Ok (s1, v) -> exec e (TField (FRandRef to)) s s1 (RVal v).

Theorem run_exec {fuel e tk s s' r} : run fuel e tk s = Ok (s', r) -> exec e tk s s' r.
Proof.
  revert e tk s s' r. induction fuel as [|n IH]; intros e tk s s' r H; [discriminate|].
  cbn [run] in H. destruct tk as [l c|x c|t|t i cnt last|t i|h fs|d].
  - destruct l as [|x l]; [injection H as <- <-; constructor|].
    dbind H as [s1 r1]. econstructor; eauto.
  - destruct x as [t|name d].
    + destruct (t_once t && c) eqn:Ec; [injection H as <- <-; constructor; exact Ec|].
      dbind H as [s1 r1]. injection H as <- <-. econstructor; eauto.
    + destruct d; try discriminate; (dbind H as [s1 r1]; injection H as <- <-; constructor; auto).
  - dbind H as [s1 cnt]. dbind H as [s2 r2]. injection H as <- <-.
    destruct (t_count t) as [d|] eqn:Ec.
    + dbind E as [s1' r1]. dbind E as w0. injection E as <- <-. eapply ex_rows_count; eauto.
    + injection E as <- <-. apply ex_rows_one; auto.
  - destruct (i <? cnt) eqn:Ei; [|injection H as <- <-; constructor; lia].
    dbind H as [s1 r1]. destruct r1; try discriminate. eapply ex_loop_step; eauto. lia.
  - destruct (new_row_id s (t_table t) (t_nick t)) as [s1 id] eqn:Hid.
    dbind H as [s4 r4].
    destruct (nth_error (heap s4) (length (heap s1))) as [c|] eqn:Hc; [|discriminate].
    dbind H as s5. dbind H as s6. dbind H as [s7 r7]. injection H as <- <-.
    eapply ex_row; eauto.
  - destruct fs as [|[name d] fs]; [injection H as <- <-; constructor|].
    destruct (String.eqb name "id") eqn:En; [discriminate|].
    dbind H as [s1 v]. econstructor; eauto.
  - destruct d as [z|x|ps|path|t|to].
    + injection H as <- <-. constructor.
    + destruct (version e =? 3) eqn:Ev.
      * injection H as <- <-. constructor. rewrite Ev. reflexivity.
      * dbind H as w0. injection H as <- <-. constructor. rewrite Ev. exact E.
    + dbind H as [s1 v]. injection H as <- <-. constructor. exact E.
    + dbind H as [s1 v]. injection H as <- <-. constructor. exact E.
    + constructor. auto.
    + dbind H as [s1 v]. injection H as <- <-. constructor. exact E.
Qed.

(* A reflexive and transitive relation on states that contains every primitive step of the
   evaluator contains every run.  [exec_rel] leaves the part of a row between the creation of its
   cell and its friends to the relation at hand, for invariants that do not hold in between. *)
Section Rel.
Variables (e : env) (R : st -> st -> Prop).
Hypothesis R_refl : forall s, R s s.
Hypothesis R_trans : forall a b c, R a b -> R b c -> R a c.
Hypothesis R_touches : forall s s', touches s s' -> R s s'.
Hypothesis R_frames : forall s x, R s (upd_frames s x).
Hypothesis R_set_field : forall s h n v, R s (set_field s h n v).

Section Row.
Hypothesis R_randref : forall to s s' v, random_reference e to s = Ok (s', v) -> R s s'.
Hypothesis R_row : forall T nick once i fs s s1 id s4 r4 c s5 s6,
  new_row_id s T nick = (s1, id) ->
  exec e (TFields (length (heap s1)) fs) (new_row s1 T nick once id i) s4 r4 ->
  R (new_row s1 T nick once id i) s4 ->
  nth_error (heap s4) (length (heap s1)) = Some c ->
  remember_history e (remember_deps s4 T (c_fields c)) T nick id = Ok s5 ->
  write_row s5 (length (heap s1)) = Ok s6 -> R s s6.

Lemma exec_rel tk s s' r : exec e tk s s' r -> R s s'.
Proof.
  induction 1; try apply R_refl; try assumption.
  - eapply R_trans; eassumption.
  - rewrite set_var_only, pop_frame_only.
    eapply R_trans; [apply (R_frames s)|]. eapply R_trans; [eassumption|]. eapply R_trans; apply R_frames.
  - rewrite pop_frame_only. eapply R_trans; [apply (R_frames s)|]. eapply R_trans; [eassumption|apply R_frames].
  - rewrite pop_frame_only. eapply R_trans; [apply (R_frames s)|]. eapply R_trans; [eassumption|].
    eapply R_trans; [eassumption|apply R_frames].
  - rewrite set_var_only in IHexec1. eapply R_trans; [apply R_frames|]. eapply R_trans; eassumption.
  - eapply R_trans; [eapply R_row; eassumption|assumption].
  - eapply R_trans; [eassumption|]. eapply R_trans; [apply R_set_field|eassumption].
  - eapply R_touches, render_formula_touches; eassumption.
  - eapply R_touches, reference_touches; eassumption.
  - eapply R_randref; eassumption.
Qed.
End Row.

Hypothesis R_rnd : forall s s', rnd_only s s' -> R s s'.
Hypothesis R_new_id : forall s T nick s1 id, new_row_id s T nick = (s1, id) -> R s s1.
Hypothesis R_new_row : forall s T nick once id i, R s (new_row s T nick once id i).
Hypothesis R_deps : forall s T fs, R s (remember_deps s T fs).
Hypothesis R_write : forall s h s', write_row s h = Ok s' -> R s s'.

Lemma exec_preorder tk s s' r : exec e tk s s' r -> R s s'.
Proof.
  apply exec_rel; intros.
  - eapply R_rnd, random_reference_rnd; eassumption.
  - eapply R_trans; [eapply R_new_id; eassumption|]. eapply R_trans; [apply R_new_row|].
    eapply R_trans; [eassumption|]. eapply R_trans; [apply R_deps|].
    eapply R_trans; [eapply R_rnd, remember_history_rnd; eassumption|eapply R_write; eassumption].
Qed.
End Rel.

Definition extends (s s' : st) : Prop :=
  exists new, out s' = new ++ out s /\ Forall clean_row new.

Lemma extends_same s s' : out s' = out s -> extends s s'.
Proof. intros H. exists []. split; [exact H|constructor]. Qed.

Lemma extends_trans s1 s2 s3 : extends s1 s2 -> extends s2 s3 -> extends s1 s3.
Proof.
  intros (n1 & H1 & F1) (n2 & H2 & F2). exists (n2 ++ n1). split.
  - rewrite H2, H1, app_assoc. reflexivity.
  - apply Forall_app. split; assumption.
Qed.

Lemma exec_extends {e tk s s' r} : exec e tk s s' r -> extends s s'.
Proof.
  apply (exec_preorder e extends (fun s => extends_same s s eq_refl) extends_trans); intros.
  - apply extends_same, touches_out. assumption.
  - apply extends_same. reflexivity.
  - apply extends_same. rewrite set_field_only. reflexivity.
  - apply extends_same, rnd_only_out. assumption.
  - apply extends_same. rewrite (new_row_id_only H). reflexivity.
  - apply extends_same. rewrite new_row_only. reflexivity.
  - apply extends_same. rewrite remember_deps_only. reflexivity.
  - destruct (write_row_spec _ _ _ H) as [Hs|(row & Hr & Hc & _)]; [apply extends_same; exact Hs|].
    exists [row]. split; [exact Hr|]. constructor; [exact Hc|constructor].
Qed.

Theorem run_extends fuel : forall e tk s s' r,
  run fuel e tk s = Ok (s', r) -> extends s s'.
Proof. intros. eapply exec_extends, run_exec. eassumption. Qed.

(* keep the kernel from unfolding the evaluator when it compares terms at Qed, here and in every file
   that requires this one *)
Strategy 1000 [iteration run].

Lemma iteration_exec {e stmts c s s'} : iteration e stmts c s = Ok s' ->
  exists s1 r, exec e (TStmts stmts c) s s1 r /\ slots_filled s1 = true /\ s' = reset_hist (reset_slots e s1).
Proof.
  unfold iteration. intros H. dbind H as [s1 r].
  destruct (slots_filled s1) eqn:Hf; [|discriminate].
  destruct (stale_slot 4 s1 (survivors s1)); [discriminate|]. injection H as <-.
  exists s1, r. split; [exact (run_exec E)|split; [exact Hf|reflexivity]].
Qed.

Lemma iterations_preorder (R : st -> st -> Prop) e stmts :
  (forall s, R s s) -> (forall a b c, R a b -> R b c -> R a c) ->
  (forall c s s', iteration e stmts c s = Ok s' -> R s s') ->
  forall k c s s', iterations k e stmts c s = Ok s' -> R s s'.
Proof.
  intros R_refl R_trans R_it. induction k as [|k IH]; intros c s s' H; cbn [iterations] in H.
  - injection H as <-. apply R_refl.
  - dbind H as s1. eapply R_trans; [eapply R_it, E|eapply IH, H].
Qed.

Lemma iterations_extends {k e stmts c s s'} : iterations k e stmts c s = Ok s' -> extends s s'.
Proof.
  revert k c s s'. apply iterations_preorder; [intros; apply extends_same; reflexivity|apply extends_trans|].
  intros c s s' H. destruct (iteration_exec H) as (s1 & r & E & _ & ->). exact (exec_extends E).
Qed.

Theorem hidden_never_emitted r k rows :
  run_rows r k = Ok rows -> Forall clean_row rows.
Proof.
  unfold run_rows, run_fresh, rows_of. intros H. dbind H as w0. injection H as <-.
  apply iterations_extends in E. destruct E as (new & Hn & F).
  cbn [out init_st] in Hn. rewrite app_nil_r in Hn. rewrite Hn.
  apply Forall_rev. exact F.
Qed.

Lemma str_all_impl (p q : ascii -> bool) s :
  (forall c, p c = true -> q c = true) -> str_all p s = true -> str_all q s = true.
Proof.
  intros Hpq. induction s as [|c r IH]; cbn [str_all]; [reflexivity|].
  intros H. apply andb_true_iff in H. destruct H as [H1 H2].
  rewrite (Hpq c H1), (IH H2). reflexivity.
Qed.

(* The character classes are ranges of codes, so inclusion and disjointness of classes are linear
   arithmetic over [nat_of_ascii c], which lia decides once ZifyBool has turned the boolean
   comparisons into propositions. *)
Ltac by_code :=
  unfold is_wordchar, is_sigma, is_alpha, is_lower, is_upper, is_digit, is_us, is_space, is_minus in *; lia.

(* [forall x, p x = true -> q x = true] for two classes; lia reads the whole context, so it is cleared *)
Ltac class_incl := let x := fresh "x" in let H := fresh "H" in intros x H; clear - H; by_code.

Lemma digits_no_dot s : str_all is_digit s = true -> has_dot s = false.
Proof.
  intros H. unfold has_dot. rewrite (str_all_impl is_digit _ s); [reflexivity|class_incl|exact H].
Qed.

Lemma look_for_number_digits s :
  all_digits s = true -> first_is_zero s = false -> look_for_number s = Ok (VInt (digits_val 0 s)).
Proof.
  intros Hd Hz. unfold look_for_number. destruct s; [discriminate|].
  rewrite (digits_no_dot _ Hd), Hz, Hd. reflexivity.
Qed.

Lemma look_for_number_leading_zero s :
  all_digits s = true -> first_is_zero s = true -> look_for_number s = Ok (VStr s).
Proof.
  intros Hd Hz. unfold look_for_number. destruct s; [discriminate|].
  rewrite (digits_no_dot _ Hd), Hz. reflexivity.
Qed.

Lemma rstrip_no_space s : str_all (fun c => negb (is_space c)) s = true -> rstrip s = s.
Proof.
  induction s as [|c r IH]; cbn [str_all rstrip]; [reflexivity|].
  intros H. apply andb_true_iff in H. destruct H as [H1 H2]. rewrite (IH H2).
  apply negb_true_iff in H1. rewrite H1. destruct r; reflexivity.
Qed.

Lemma drop_us_no_us s : str_all (fun c => negb (is_us c)) s = true -> drop_us s = s.
Proof.
  induction s as [|c r IH]; cbn [str_all drop_us]; [reflexivity|].
  intros H. apply andb_true_iff in H. destruct H as [H1 H2]. rewrite (IH H2).
  apply negb_true_iff in H1. rewrite H1. reflexivity.
Qed.

Lemma us_ok_no_us s : str_all (fun c => negb (is_us c)) s = true ->
  forall p, us_ok p s = match s with EmptyString => negb p | _ => true end.
Proof.
  induction s as [|c r IH]; cbn [str_all us_ok]; [reflexivity|].
  intros H p. apply andb_true_iff in H. destruct H as [H1 H2].
  apply negb_true_iff in H1. rewrite H1. rewrite (IH H2 false). destruct r; reflexivity.
Qed.

Lemma native_str_digits s :
  all_digits s = true -> first_is_zero s = false -> native_str s = Ok (VInt (digits_val 0 s)).
Proof.
  intros Hd Hz. destruct s as [|c r]; [discriminate|]. cbn [all_digits] in Hd.
  (* every class test native_str makes on the string follows from "all digits" *)
  assert (Hall : forall q : ascii -> bool, (forall x, is_digit x = true -> q x = true) ->
                                           str_all q (String c r) = true).
  { intros q Hq. exact (str_all_impl is_digit q _ Hq Hd). }
  assert (Hc : is_digit c = true /\ is_space c = false /\ is_minus c = false).
  { cbn [str_all] in Hd. apply andb_true_iff, proj1 in Hd. by_code. }
  destruct Hc as (Hc & Hsp & Hm).
  unfold native_str.
  rewrite (Hall is_sigma) by class_incl. cbn [negb first_is]. rewrite Hsp.
  rewrite rstrip_no_space by (apply Hall; class_incl). cbn [first_is]. rewrite Hm.
  cbn [first_is]. rewrite Hc, (Hall (fun x => negb (is_alpha x))) by class_incl. cbn [negb andb].
  unfold dec_literal.
  rewrite (Hall (fun x => is_digit x || is_us x)) by class_incl.
  rewrite us_ok_no_us, drop_us_no_us, Hz by (apply Hall; class_incl).
  reflexivity.
Qed.

Lemma rstrip_head c r : is_space c = false -> exists r', rstrip (String c r) = String c r'.
Proof.
  intros H. cbn [rstrip]. destruct (rstrip r); [rewrite H|]; eexists; reflexivity.
Qed.

Lemma words_stay_strings s :
  is_word s = true -> look_for_number s = Ok (VStr s) /\ native_str s = Ok (VStr s).
Proof.
  destruct s as [|c r]; [discriminate|]. cbn [is_word]. intros Hw.
  apply andb_true_iff in Hw. destruct Hw as [Hl Hr].
  assert (Hc : is_wordchar c = true /\ is_digit c = false /\ is_space c = false /\ is_minus c = false /\
               is_us c = false /\ (nat_of_ascii c =? 48)%nat = false) by by_code.
  destruct Hc as (Hwc & Hd & Hsp & Hm & Hu & Hz).
  assert (Hall : forall q : ascii -> bool, (forall x, is_wordchar x = true -> q x = true) ->
                                           str_all q (String c r) = true).
  { intros q Hq. apply (str_all_impl is_wordchar); [exact Hq|]. cbn [str_all]. rewrite Hr, Hwc. reflexivity. }
  split.
  - unfold look_for_number, has_dot.
    rewrite (Hall (fun x => negb (nat_of_ascii x =? 46)%nat)) by class_incl.
    cbn [negb first_is_zero all_digits str_all]. rewrite Hd, Hz. reflexivity.
  - unfold native_str.
    rewrite (Hall is_sigma) by class_incl. cbn [negb first_is]. rewrite Hsp.
    destruct (rstrip_head c r Hsp) as [r' ->]. cbn [first_is]. rewrite Hm. cbn [first_is]. rewrite Hd. cbn [andb].
    unfold dec_literal. cbn [str_all]. rewrite Hd, Hu. cbn [orb andb].
    (* so it is none of None, True, False *)
    assert (HN : forall c0 w, is_lower c0 = false -> String.eqb (String c r') (String c0 w) = false).
    { intros c0 w Hc0. cbn [String.eqb]. destruct (Ascii.eqb_spec c c0); [congruence|reflexivity]. }
    change "None"%string with (String "N" "one"). change "True"%string with (String "T" "rue").
    change "False"%string with (String "F" "alse").
    rewrite !HN by reflexivity. reflexivity.
Qed.

Lemma object_name_precedence s n :
  object_name s n =
  match lookup n (last_by_table s), lookup n (nick_objs s), lookup n (p_tables s), lookup n (p_nicks s) with
  | Some h, _, _, _ => Some (VRow h)
  | None, Some h, _, _ => Some (VRow h)
  | None, None, Some h, _ => Some (VRow h)
  | None, None, None, Some h => Some (VRow h)
  | None, None, None, None => match lookup n (slots s) with Some _ => Some (VSlot n) | None => None end
  end.
Proof.
  unfold object_name.
  destruct (lookup n (last_by_table s)), (lookup n (nick_objs s)), (lookup n (p_tables s)),
    (lookup n (p_nicks s)); reflexivity.
Qed.

