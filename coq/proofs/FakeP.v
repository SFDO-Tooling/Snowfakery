(* Proofs about theories/Fake.v (property C18).
   E-mail: every result is a safe_addr, whichever branch produced it; safe_addr_shape and
   safe_addr_one_at say what that means.
   Username: length and the single "@" need only the last cut (username_shape); user_name_split
   writes the name as names, a cut of the uuid, "@", host, and the two uniqueness results are
   read off that equation.
   Name table: lookup_cases says who answers a query; that spelling does not matter, and that
   Snowfakery's names win, follow from it.
   Rows: one inversion lemma per step (fake_email_inv, fake_user_name_inv), and fake_step_lv for
   what a step does to local_vars. *)
From Coq Require Import ZArith NArith List Bool String Ascii Lia.
From Coq Require DecimalFacts DecimalPos.
From SFV Require Import Base Fake.
From SFV.P Require Import BaseP.
Import ListNotations. Open Scope Z_scope.

Lemma str_eqb_eq a b : str_eqb a b = true -> a = b.
Proof.
  unfold str_eqb. revert b; induction a as [|x a IH]; intros [|y b]; cbn [list_eqb]; try discriminate; auto.
  intros [->%Z.eqb_eq H]%andb_true_iff. f_equal; auto.
Qed.

Lemma str_eqb_refl a : str_eqb a a = true.
Proof. unfold str_eqb. induction a; cbn [list_eqb]; auto. rewrite Z.eqb_refl. auto. Qed.

Lemma no_at_cons c s : no_at (c :: s) = true <-> c <> AT /\ no_at s = true.
Proof. unfold no_at. cbn [forallb]. rewrite andb_true_iff, negb_true_iff, Z.eqb_neq. reflexivity. Qed.

Lemma no_at_In s : no_at s = true <-> ~ In AT s.
Proof.
  induction s as [|c s IH]; [cbn; intuition|]. rewrite no_at_cons, IH. cbn [In]. intuition congruence.
Qed.

Lemma no_at_app a b : no_at (a ++ b) = no_at a && no_at b.
Proof. apply forallb_app. Qed.

Lemma no_at_incl a b : incl a b -> no_at b = true -> no_at a = true.
Proof. rewrite !no_at_In. intros H Hb Ha. apply Hb, H, Ha. Qed.

Lemma no_at_firstn n s : no_at s = true -> no_at (firstn n s) = true.
Proof.
  apply no_at_incl. intros c Hc. rewrite <- (firstn_skipn n s). apply in_or_app. auto.
Qed.

Lemma no_at_alnum s : no_at (filter isalnum s) = true.
Proof. apply no_at_In. intros H. apply filter_In in H as [_ H]. discriminate H. Qed.

Lemma count_at_app a b : count_at (a ++ b) = (count_at a + count_at b)%nat.
Proof. unfold count_at. rewrite filter_app, app_length. reflexivity. Qed.

Lemma count_at_no_at s : no_at s = true -> count_at s = 0%nat.
Proof.
  unfold count_at. induction s as [|c s IH]; [reflexivity|]. intros [H1 H2]%no_at_cons.
  cbn [filter]. apply not_eq_sym, Z.eqb_neq in H1. rewrite H1. auto.
Qed.

Lemma count_at_one l d : no_at l = true -> no_at d = true -> count_at (l ++ [AT] ++ d) = 1%nat.
Proof. intros Hl Hd. rewrite !count_at_app, (count_at_no_at l Hl), (count_at_no_at d Hd). reflexivity. Qed.

Lemma split_at_app l d : no_at l = true -> split_at (l ++ AT :: d) = Some (l, d).
Proof.
  induction l as [|c l IH]; cbn [app split_at].
  - rewrite Z.eqb_refl. reflexivity.
  - intros [H1%Z.eqb_neq H2]%no_at_cons. rewrite H1, (IH H2). reflexivity.
Qed.

Lemma split_at_sound s a b : split_at s = Some (a, b) -> s = a ++ AT :: b /\ no_at a = true.
Proof.
  revert a. induction s as [|c s IH]; intros a; cbn [split_at]; [discriminate|].
  destruct (Z.eqb_spec c AT) as [->|E].
  - intros [= <- <-]. auto.
  - destruct (split_at s) as [[a' b']|]; [|discriminate].
    intros [= <- <-]. destruct (IH a' eq_refl) as [-> Hn]. split; [reflexivity|].
    apply no_at_cons. auto.
Qed.

Lemma at_split_unique a1 b1 a2 b2 :
  no_at a1 = true -> no_at a2 = true -> a1 ++ AT :: b1 = a2 ++ AT :: b2 -> a1 = a2 /\ b1 = b2.
Proof.
  intros H1 H2 E. pose proof (split_at_app a1 b1 H1) as S1. rewrite E, (split_at_app a2 b2 H2) in S1.
  injection S1 as -> ->. auto.
Qed.

Lemma reserved_cases d : reserved d = true ->
  d = of_string "example.com" \/ d = of_string "example.org" \/ d = of_string "example.net".
Proof.
  unfold reserved. intros [[H|H]%orb_true_iff|H]%orb_true_iff; apply str_eqb_eq in H; auto.
Qed.

Lemma reserved_no_at d : reserved d = true -> no_at d = true.
Proof. intros H. destruct (reserved_cases d H) as [-> | [-> | ->]]; reflexivity. Qed.

Lemma safe_addr_shape e :
  safe_addr e = true <-> exists local d, e = local ++ [AT] ++ d /\ no_at local = true /\ reserved d = true.
Proof.
  unfold safe_addr. split.
  - destruct (split_at e) as [[a b]|] eqn:E; [|discriminate]. intros H.
    destruct (split_at_sound _ _ _ E) as [-> Hn]. exists a, b. auto.
  - intros (l & d & -> & Hl & Hd). cbn [app]. rewrite (split_at_app l d Hl). exact Hd.
Qed.

Lemma safe_addr_one_at e : safe_addr e = true -> count_at e = 1%nat.
Proof.
  intros H. apply safe_addr_shape in H as (l & d & -> & Hl & Hd).
  apply count_at_one; auto using reserved_no_at.
Qed.

Lemma uint_str_no_at u : no_at (uint_str u) = true.
Proof. induction u; cbn [uint_str]; unfold no_at in *; cbn [forallb]; auto. Qed.

Lemma dec_no_at z : no_at (dec z) = true.
Proof.
  unfold dec. destruct (Z.to_int z); [apply uint_str_no_at|].
  unfold no_at. cbn [forallb]. apply uint_str_no_at.
Qed.

Lemma uint_str_length u : length (uint_str u) = Decimal.nb_digits u.
Proof. induction u; cbn [uint_str Decimal.nb_digits length]; auto. Qed.

Section Digits.
  Import Decimal DecimalPos.Unsigned.
  Local Open Scope N_scope.

  (* counting up from a number that ends in 0 changes only that digit, nine times *)
  Lemma nb_digits_last k d : (k < 10)%nat -> nb_digits (Nat.iter k Little.succ (D0 d)) = S (nb_digits d).
  Proof. intros H. do 10 (destruct k as [|k]; [reflexivity|]). lia. Qed.

  Lemma to_lu_add k m : to_lu (N.of_nat k + m) = Nat.iter k Little.succ (to_lu m).
  Proof.
    rewrite Nadd_alt, Nat2N.id. induction k; [reflexivity|].
    rewrite !nat_iter_S, to_lu_succ, IHk. reflexivity.
  Qed.

  (* a number from 10^n up to 10^(n+1) is written with n+1 digits: its last digit after the
     n digits of its tenth *)
  Lemma to_lu_length n : forall m, 10 ^ N.of_nat n <= m < 10 ^ N.of_nat (S n) -> nb_digits (to_lu m) = S n.
  Proof.
    induction n as [|n IH]; intros m H.
    - rewrite <- (N.add_0_r m), <- (N2Nat.id m), to_lu_add. apply nb_digits_last. cbn in H. lia.
    - rewrite !Nat2N.inj_succ, !N.pow_succ_r' in *.
      pose proof (N.pow_nonzero 10 (N.of_nat n)) as X.
      pose proof (N.div_mod m 10) as E. pose proof (N.mod_lt m 10) as R.
      generalize dependent (m mod 10). intros r E R.
      destruct (m / 10) as [|q]; [exfalso; lia|].
      rewrite E, N.add_comm, <- (N2Nat.id r), to_lu_add, to_ldec_tenfold by lia.
      rewrite nb_digits_last, IH by lia. reflexivity.
  Qed.
End Digits.

Lemma dec_length n y : 10 ^ Z.of_nat n <= y < 10 ^ Z.of_nat (S n) -> length (dec y) = S n.
Proof.
  intros H. destruct y as [|p|p]; try lia. unfold dec. cbn [Z.to_int]. unfold Pos.to_uint.
  rewrite uint_str_length, DecimalFacts.nb_digits_rev.
  apply (to_lu_length n (N.pos p)). lia.
Qed.

Lemma clean_str_some s r : clean_str s = Some r -> isascii s = true /\ r = filter isalnum s.
Proof. unfold clean_str. destruct (isascii s); [|discriminate]. intros [= <-]. auto. Qed.

Lemma names_for_some m lv f l :
  names_for m lv = Some (f, l) ->
  m = true /\ f <> [] /\ l <> [] /\
  exists fr lr, assoc "firstname" lv = Some fr /\ assoc "lastname" lv = Some lr /\
                isascii fr = true /\ isascii lr = true /\
                f = filter isalnum fr /\ l = filter isalnum lr.
Proof.
  unfold names_for, clean.
  destruct (assoc "firstname" lv) as [fr|]; [|discriminate].
  destruct (clean_str fr) as [[|a f']|] eqn:E1; try discriminate.
  destruct (assoc "lastname" lv) as [lr|]; [|discriminate].
  destruct (clean_str lr) as [[|b l']|] eqn:E2; try discriminate.
  destruct m; [|discriminate]. intros [= <- <-].
  apply clean_str_some in E1 as [A1 B1]. apply clean_str_some in E2 as [A2 B2].
  repeat split; try discriminate. eauto 8.
Qed.

Lemma names_for_no_at m lv f l :
  names_for m lv = Some (f, l) -> no_at f = true /\ no_at l = true.
Proof.
  intros H. apply names_for_some in H as (_ & _ & _ & fr & lr & _ & _ & _ & _ & -> & ->).
  split; apply no_at_alnum.
Qed.

Lemma names_for_intro lv fr lr :
  assoc "firstname" lv = Some fr -> assoc "lastname" lv = Some lr ->
  isascii fr = true -> isascii lr = true ->
  filter isalnum fr <> [] -> filter isalnum lr <> [] ->
  names_for true lv = Some (filter isalnum fr, filter isalnum lr).
Proof.
  intros H1 H2 A1 A2 N1 N2. unfold names_for, clean, clean_str. rewrite H1, H2, A1, A2.
  destruct (filter isalnum fr); [congruence|]. destruct (filter isalnum lr); [congruence|]. reflexivity.
Qed.

Lemma names_for_nonascii m lv fr :
  assoc "firstname" lv = Some fr -> isascii fr = false -> names_for m lv = None.
Proof. intros H A. unfold names_for, clean, clean_str. rewrite H, A. reflexivity. Qed.

Lemma idx_bind s i (k : Z -> result str) r :
  (do a <- idx s i; k a) = Ok r -> exists a, In a s /\ k a = Ok r.
Proof.
  unfold idx. destruct (nth_error s i) as [a|] eqn:E; [|discriminate].
  exists a. split; [exact (nth_error_In _ _ E) | assumption].
Qed.

Lemma idx_ok s i : (i < length s)%nat -> exists c, idx s i = Ok c.
Proof.
  intros H. unfold idx. destruct (nth_error s i) eqn:E; eauto.
  apply nth_error_None in E. lia.
Qed.

Lemma fpat_apply_In p s r : fpat_apply p s = Ok r -> incl r s.
Proof.
  destruct p; cbn [fpat_apply]; intros H; repeat apply idx_bind in H as (? & ? & H);
    injection H as <-; auto using incl_refl, incl_cons, incl_nil_l.
Qed.

Lemma ypat_apply_In p s r : ypat_apply p s = Ok r -> incl r s.
Proof.
  destruct p; cbn [ypat_apply]; intros H; repeat apply idx_bind in H as (? & ? & H);
    injection H as <-; auto using incl_refl, incl_cons, incl_nil_l.
Qed.

Lemma ljust2_no_at s : no_at s = true -> no_at (ljust2 s) = true.
Proof. destruct s as [|a [|b s]]; cbn [ljust2]; auto. Qed.

Lemma ljust2_len s : (2 <= length (ljust2 s))%nat.
Proof. destruct s as [|a [|b s]]; cbn [ljust2 length]; lia. Qed.

Lemma seps_no_at sep : In sep seps -> no_at sep = true.
Proof. unfold seps. intros [<-|[<-|[<-|[<-|[<-|[]]]]]]; reflexivity. Qed.

Lemma in_templates fp sep yp : In (fp, (sep, yp)) templates -> In sep seps.
Proof.
  unfold templates. intros H. apply in_prod_iff in H as [_ H]. apply in_prod_iff in H as [H _]. exact H.
Qed.

Lemma email_matching_shape f l tpl year dom e :
  email_matching f l tpl year dom = Ok e ->
  exists fp sep yp fpart ypart,
    e = fpart ++ sep ++ l ++ ypart ++ [AT] ++ dom /\
    fpat_apply fp (ljust2 f) = Ok fpart /\ In sep seps /\ ypat_apply yp (dec year) = Ok ypart.
Proof.
  unfold email_matching. destruct (tpl <? 0); [discriminate|].
  destruct (nth_error templates (Z.to_nat tpl)) as [[fp [sep yp]]|] eqn:E; [|discriminate].
  apply nth_error_In, in_templates in E.
  unfold fill. intros H. apply bind_Ok in H as (fpart & E1 & H). apply bind_Ok in H as (ypart & E2 & [= <-]).
  exists fp, sep, yp, fpart, ypart. auto.
Qed.

Lemma email_matching_safe m lv f l tpl year dom e :
  names_for m lv = Some (f, l) -> reserved dom = true ->
  email_matching f l tpl year dom = Ok e -> safe_addr e = true.
Proof.
  intros N Hd H. destruct (names_for_no_at _ _ _ _ N) as [Hf Hl].
  apply email_matching_shape in H as (fp & sep & yp & fpart & ypart & -> & H1 & Hs & H2).
  apply safe_addr_shape. exists (fpart ++ sep ++ l ++ ypart), dom. repeat split; auto.
  - rewrite <- !app_assoc. reflexivity.
  - rewrite !no_at_app, (seps_no_at _ Hs), Hl.
    rewrite (no_at_incl _ _ (fpat_apply_In _ _ _ H1) (ljust2_no_at _ Hf)).
    rewrite (no_at_incl _ _ (ypat_apply_In _ _ _ H2) (dec_no_at year)). reflexivity.
Qed.

Lemma fpat_apply_total p s : (2 <= length s)%nat -> exists r, fpat_apply p s = Ok r.
Proof. destruct s as [|a [|b s]]; cbn [length]; [lia..|]. destruct p; cbn; eauto. Qed.

Lemma ypat_apply_total p s : length s = 4%nat -> exists r, ypat_apply p s = Ok r.
Proof. destruct s as [|a [|b [|c [|d s]]]]; try discriminate. destruct p; cbn; eauto. Qed.

(* Every template can be filled: the only possible failure is an index into the year text, and
   there is none for four digits. *)
Lemma email_matching_filled f l tpl year dom :
  0 <= tpl < 60 -> 1000 <= year <= 9999 ->
  exists fp sep yp fpart ypart,
    email_matching f l tpl year dom = Ok (fpart ++ sep ++ l ++ ypart ++ [AT] ++ dom) /\
    fpat_apply fp (ljust2 f) = Ok fpart /\ In sep seps /\ ypat_apply yp (dec year) = Ok ypart.
Proof.
  intros Ht Hy. unfold email_matching.
  destruct (tpl <? 0) eqn:E; [apply Z.ltb_lt in E; lia|].
  destruct (nth_error templates (Z.to_nat tpl)) as [[fp [sep yp]]|] eqn:E1.
  2:{ apply nth_error_None in E1. change (length templates) with 60%nat in E1. lia. }
  apply nth_error_In, in_templates in E1. unfold fill.
  destruct (fpat_apply_total fp (ljust2 f) (ljust2_len f)) as [fpart P1].
  destruct (ypat_apply_total yp (dec year)) as [ypart P2]; [apply (dec_length 3); lia|].
  rewrite P1, P2. exists fp, sep, yp, fpart, ypart. auto.
Qed.

Lemma email_of_safe dom ase m lv tpl year e :
  reserved dom = true ->        (* f.safe_domain_name() *)
  safe_addr ase = true ->       (* f.ascii_safe_email() *)
  email_of m lv tpl year dom ase = Ok e -> safe_addr e = true.
Proof.
  intros D A H. unfold email_of in H. destruct (names_for m lv) as [[f l]|] eqn:N.
  - exact (email_matching_safe _ _ _ _ _ _ _ _ N D H).
  - injection H as <-. exact A.
Qed.

(* a non-ASCII (or missing, or punctuation-only) name: Faker's ascii_safe_email is returned *)
Theorem email_fallback :
  forall matching lv tpl year dom ase,
    names_for matching lv = None -> email_of matching lv tpl year dom ase = Ok ase.
Proof. intros. unfold email_of. rewrite H. reflexivity. Qed.

Lemma names_of_no_at m lv ff fl :
  no_at ff = true -> no_at fl = true -> no_at (names_of m lv ff fl) = true.
Proof.
  intros Hf Hl. unfold names_of. destruct (names_for m lv) as [[f l]|] eqn:N.
  - destruct (names_for_no_at _ _ _ _ N) as [A B]. rewrite !no_at_app, A, B. reflexivity.
  - rewrite !no_at_app, Hf, Hl. reflexivity.
Qed.

Lemma slice0_nonneg s n : 0 <= n -> slice0 s n = firstn (Z.to_nat n) s.
Proof. intros H. unfold slice0. destruct (0 <=? n) eqn:E; [reflexivity|lia]. Qed.

Lemma slice0_all s n : Z.of_nat (length s) <= n -> slice0 s n = s.
Proof. intros H. rewrite slice0_nonneg by lia. apply firstn_all2. lia. Qed.

Lemma slice0_no_at s n : no_at s = true -> no_at (slice0 s n) = true.
Proof. intros H. unfold slice0. destruct (0 <=? n); apply no_at_firstn; auto. Qed.

(* join_unique = a prefix that does not depend on the uuid, followed by the uuid *)
Definition join_prefix (names : str) : str :=
  match names with [] => [] | _ => names ++ [USCORE] end.

Lemma join_unique_prefix names uuid : join_unique names uuid = join_prefix names ++ uuid.
Proof.
  unfold join_unique, join_prefix. destruct names; [reflexivity|]. rewrite <- app_assoc. reflexivity.
Qed.

Lemma join_unique_no_at names uuid :
  no_at names = true -> no_at uuid = true -> no_at (join_unique names uuid) = true.
Proof. intros A B. destruct names; [exact B|]. unfold join_unique. rewrite !no_at_app, A, B. reflexivity. Qed.

(* The names are cut so that, with their "_", they leave 16 places of the name part free
   (and are dropped altogether when the name part has no more than 17). *)
Lemma kept_prefix_length m lv host ff fl :
  Z.of_nat (length (join_prefix (kept_names m lv host ff fl)))
  <= Z.max (namepart_max_len host - unique_min_len) 0.
Proof.
  unfold kept_names, unique_min_len.
  set (n := Z.max (namepart_max_len host - (16 + 1)) 0).
  rewrite slice0_nonneg by lia.
  pose proof (firstn_le_length (Z.to_nat n) (names_of m lv ff fl)) as L.
  destruct (firstn (Z.to_nat n) (names_of m lv ff fl)); cbn [join_prefix length] in *; [lia|].
  rewrite app_length. cbn [length]. lia.
Qed.

Lemma user_name_split m lv host ff fl uuid :
  let pre := join_prefix (kept_names m lv host ff fl) in
  user_name_of m lv host ff fl uuid
  = pre ++ firstn (Z.to_nat (namepart_max_len host) - length pre) uuid ++ [AT] ++ host.
Proof.
  intros pre. pose proof (kept_prefix_length m lv host ff fl) as L. fold pre in L.
  unfold unique_min_len in L.
  assert (0 <= namepart_max_len host) as N by (unfold namepart_max_len; lia).
  unfold user_name_of. rewrite join_unique_prefix. fold pre.
  rewrite slice0_nonneg, firstn_app, firstn_all2, <- app_assoc by lia. reflexivity.
Qed.

Section FakerHost.
  (* what Faker returned to this call of FakeNames.user_name *)
  Variables (host uuid ff fl : str).
  Hypothesis hostname_bounded : (length host <= 79)%nat.
  Hypothesis hostname_no_at : no_at host = true.
  Hypothesis uuid_no_at : no_at uuid = true.
  Hypothesis first_name_no_at : no_at ff = true.
  Hypothesis last_name_no_at : no_at fl = true.

  Theorem username_shape :
    forall matching lv,
      (length (user_name_of matching lv host ff fl uuid) <= 80)%nat /\
      count_at (user_name_of matching lv host ff fl uuid) = 1%nat /\
      exists np, user_name_of matching lv host ff fl uuid = np ++ [AT] ++ host /\ no_at np = true.
  Proof.
    intros m lv. unfold user_name_of.
    set (np := slice0 _ _).
    assert (no_at np = true) as A.
    { apply slice0_no_at, join_unique_no_at, uuid_no_at. apply slice0_no_at, names_of_no_at; assumption. }
    assert (length np <= 79 - length host)%nat as L.
    { unfold np, namepart_max_len. rewrite slice0_nonneg, firstn_length by lia. lia. }
    repeat split.
    - rewrite app_length. cbn [app length]. lia.
    - apply count_at_one; assumption.
    - exists np. auto.
  Qed.
End FakerHost.

Lemma app_eq_len_r {X} (a1 a2 b1 b2 : list X) :
  length b1 = length b2 -> a1 ++ b1 = a2 ++ b2 -> a1 = a2 /\ b1 = b2.
Proof.
  revert a2. induction a1 as [|x a1 IH]; intros [|y a2] L H;
    pose proof (f_equal (@length X) H) as N; rewrite !app_length in N; cbn [app length] in *; try lia.
  - auto.
  - injection H as <- H. destruct (IH a2 L H) as [-> ->]. auto.
Qed.

Lemma user_name_untruncated m lv host ff fl uuid :
  (length (names_of m lv ff fl) + 1 + length uuid <= 79 - length host)%nat ->
  (unique_min_len <= Z.of_nat (length uuid)) ->
  user_name_of m lv host ff fl uuid
  = join_unique (names_of m lv ff fl) uuid ++ [AT] ++ host.
Proof.
  intros H U. rewrite user_name_split, join_unique_prefix, <- app_assoc.
  unfold kept_names, namepart_max_len, unique_min_len in *.
  rewrite slice0_all by lia. f_equal. f_equal. apply firstn_all2.
  destruct (names_of m lv ff fl); cbn [join_prefix length] in *; [lia|].
  rewrite app_length. cbn [length]. lia.
Qed.

Theorem username_unique_partial :
  forall m1 lv1 host1 ff1 fl1 uuid1 m2 lv2 host2 ff2 fl2 uuid2,
    no_at ff1 = true -> no_at fl1 = true -> no_at uuid1 = true ->
    no_at ff2 = true -> no_at fl2 = true -> no_at uuid2 = true ->
    length uuid1 = 36%nat -> length uuid2 = 36%nat ->
    (length (names_of m1 lv1 ff1 fl1) + 37 <= 79 - length host1)%nat ->
    (length (names_of m2 lv2 ff2 fl2) + 37 <= 79 - length host2)%nat ->
    uuid1 <> uuid2 ->
    user_name_of m1 lv1 host1 ff1 fl1 uuid1 <> user_name_of m2 lv2 host2 ff2 fl2 uuid2.
Proof.
  intros m1 lv1 host1 ff1 fl1 uuid1 m2 lv2 host2 ff2 fl2 uuid2 A1 B1 C1 A2 B2 C2 L1 L2 K1 K2 Hne E.
  apply Hne.
  rewrite !user_name_untruncated in E by (unfold unique_min_len; lia).
  apply at_split_unique in E as [E _]; [|apply join_unique_no_at; auto using names_of_no_at..].
  rewrite !join_unique_prefix in E. apply app_eq_len_r in E; [tauto|congruence].
Qed.

(* One row (same names, same host), any truncation: at least unique_min_len = 16 characters of
   the uuid survive whenever the host name leaves 17 characters (|host| <= 62), so the usernames
   differ as soon as the first 16 characters of the uuids differ. *)
Theorem username_unique_prefix :
  forall m lv host ff fl uuid1 uuid2,
    (length host <= 62)%nat ->
    firstn 16 uuid1 <> firstn 16 uuid2 ->
    user_name_of m lv host ff fl uuid1 <> user_name_of m lv host ff fl uuid2.
Proof.
  intros m lv host ff fl uuid1 uuid2 Hh Hne E. apply Hne.
  rewrite !user_name_split in E. apply app_inv_head, app_inv_tail in E.
  pose proof (kept_prefix_length m lv host ff fl) as L.
  apply (f_equal (firstn 16)) in E. rewrite !firstn_firstn in E.
  rewrite Nat.min_l in E by (unfold namepart_max_len, unique_min_len in *; lia). exact E.
Qed.

Lemma assoc_app {V} k (l1 l2 : list (string * V)) :
  assoc k (l1 ++ l2) = match assoc k l1 with Some v => Some v | None => assoc k l2 end.
Proof.
  induction l1 as [|[k' v] l1 IH]; cbn [app assoc]; auto. destruct (String.eqb k k'); auto.
Qed.

Lemma assoc_In {V} k (l : list (string * V)) v : assoc k l = Some v -> In (k, v) l.
Proof.
  induction l as [|[k' v'] l IH]; cbn [assoc]; [discriminate|].
  destruct (String.eqb k k') eqn:E.
  - apply String.eqb_eq in E. intros [= <-]. subst. left; reflexivity.
  - intros H. right. auto.
Qed.

Lemma assoc_None {V} k (l : list (string * V)) : assoc k l = None -> ~ In k (map fst l).
Proof.
  induction l as [|[k' v'] l IH]; cbn [assoc map In fst]; [tauto|].
  destruct (String.eqb k k') eqn:E; [discriminate|]. apply String.eqb_neq in E.
  intros H [A|B]; [congruence|]. exact (IH H B).
Qed.

Lemma assoc_found {V} k (l : list (string * V)) : In k (map fst l) -> exists v, assoc k l = Some v.
Proof.
  intros H. destruct (assoc k l) eqn:E; eauto. exfalso. exact (assoc_None _ _ E H).
Qed.

Lemma in_rev_layer s cf attrs k p :
  In (k, p) (rev (layer s cf attrs)) <-> exists n, In n attrs /\ k = cf n /\ p = (s, n).
Proof.
  rewrite <- in_rev. unfold layer. rewrite in_map_iff. split.
  - intros (n & [= <- <-] & Hn). eauto.
  - intros (n & Hn & -> & ->). eauto.
Qed.

Lemma keys_rev_layer s cf attrs k : In k (map fst (rev (layer s cf attrs))) <-> In k (map cf attrs).
Proof.
  rewrite map_rev, <- in_rev. unfold layer. rewrite map_map. cbn [fst]. reflexivity.
Qed.

Lemma layer_key s cf attrs n : In n attrs -> In (cf n) (map fst (rev (layer s cf attrs))).
Proof. intros H. apply keys_rev_layer, in_map, H. Qed.

Lemma no_us_idem s : no_us (no_us s) = no_us s.
Proof.
  induction s as [|a s IH]; cbn [no_us]; auto.
  destruct (Ascii.eqb a "_") eqn:E; auto. cbn [no_us]. rewrite E, IH. reflexivity.
Qed.

(* a query that hits a key made from attribute n has n's canonical form *)
Lemma key_canon q n : lower q = canon n \/ lower q = lower n -> canon q = canon n.
Proof.
  unfold canon. intros [H|H]; rewrite H; auto. apply no_us_idem.
Qed.

Lemma in_layer5 fa sa k p :
  In (k, p) (rev (layer5 fa sa)) ->
  exists nf ns, In nf fa /\ k = lower nf /\ p = (Sf, ns) /\ In ns sa /\ canon nf = canon ns.
Proof.
  rewrite <- in_rev. unfold layer5. rewrite in_flat_map. intros (nf & Hnf & H).
  destruct (assoc (canon nf) (rev (layer Sf canon sa))) as [p'|] eqn:E; [|destruct H].
  destruct H as [[= <- <-]|[]].
  apply assoc_In, in_rev_layer in E as (ns & Hns & K & ->). eauto 8.
Qed.

Lemma keys_layer5 fa sa nf :
  In nf fa -> In (canon nf) (map canon sa) -> In (lower nf) (map fst (rev (layer5 fa sa))).
Proof.
  intros Hnf Hc. rewrite map_rev, <- in_rev. unfold layer5. apply in_map_iff.
  destruct (assoc_found (canon nf) (rev (layer Sf canon sa))) as [p E].
  { apply keys_rev_layer. exact Hc. }
  exists (lower nf, p). split; [reflexivity|]. apply in_flat_map. exists nf. split; auto.
  rewrite E. left. reflexivity.
Qed.

(* Who answers a query: FakeNames, under an attribute with the query's canonical form; or Faker,
   likewise, and then only if FakeNames has no attribute with that canonical form (the third and
   the fifth layer stand before Faker's). *)
Lemma lookup_cases fa sa q p :
  lookup (build fa sa) q = Some p ->
  exists n, canon q = canon n /\
    (p = (Sf, n) /\ In n sa \/ p = (Fk, n) /\ In n fa /\ ~ In (canon q) (map canon sa)).
Proof.
  unfold lookup, build. rewrite !assoc_app.
  destruct (assoc (lower q) (rev (layer5 fa sa))) eqn:E0.
  { intros [= <-]. apply assoc_In, in_layer5 in E0 as (nf & ns & Hnf & K & -> & Hns & C).
    exists ns. rewrite <- C. split; [apply key_canon|]; auto. }
  destruct (assoc (lower q) (rev (layer Sf canon sa))) eqn:E1.
  { intros [= <-]. apply assoc_In, in_rev_layer in E1 as (n & Hn & K & ->).
    exists n. split; [apply key_canon|]; auto. }
  destruct (assoc (lower q) (rev (layer Sf lower sa))) eqn:E2.
  { intros [= <-]. apply assoc_In, in_rev_layer in E2 as (n & Hn & K & ->).
    exists n. split; [apply key_canon|]; auto. }
  apply assoc_None in E0, E1. rewrite keys_rev_layer in E1.
  destruct (assoc (lower q) (rev (layer Fk canon fa))) eqn:E3.
  - intros [= <-]. apply assoc_In, in_rev_layer in E3 as (n & Hn & K & ->).
    exists n. pose proof (key_canon q n (or_introl K)) as C. split; [exact C|]. right.
    repeat split; auto. rewrite C, <- K. exact E1.
  - intros E4. apply assoc_In, in_rev_layer in E4 as (n & Hn & K & ->).
    exists n. pose proof (key_canon q n (or_intror K)) as C. split; [exact C|]. right.
    repeat split; auto. rewrite C. intros M. apply E0. rewrite K. apply keys_layer5; auto.
Qed.

(* Two spellings of one canonical form are answered by the same object, under attributes of one
   canonical form: a FakeNames attribute with that form shuts Faker out for both. *)
Lemma lookup_same_provider fa sa q1 q2 s1 n1 s2 n2 :
  canon q1 = canon q2 ->
  lookup (build fa sa) q1 = Some (s1, n1) -> lookup (build fa sa) q2 = Some (s2, n2) ->
  let attrs := match s1 with Fk => fa | Sf => sa end in
  s1 = s2 /\ canon n1 = canon n2 /\ In n1 attrs /\ In n2 attrs.
Proof.
  intros C H1 H2.
  apply lookup_cases in H1 as (m1 & C1 & H1). apply lookup_cases in H2 as (m2 & C2 & H2).
  destruct H1 as [[[= -> ->] I1]|([= -> ->] & I1 & N1)], H2 as [[[= -> ->] I2]|([= -> ->] & I2 & N2)].
  - repeat split; auto; congruence.
  - destruct N2. rewrite <- C, C1. apply in_map, I1.
  - destruct N1. rewrite C, C2. apply in_map, I2.
  - repeat split; auto; congruence.
Qed.

(* the decidable hypotheses evaluated by the correspondence check imply the ones above *)
Lemma consistentb_sound (val : prov -> string) s attrs :
  consistentb String.eqb val s attrs = true ->
  forall n1 n2, In n1 attrs -> In n2 attrs -> canon n1 = canon n2 -> val (s, n1) = val (s, n2).
Proof.
  unfold consistentb. intros H n1 n2 H1 H2 C.
  set (pair := fun n => (canon n, val (s, n))) in H.
  rewrite forallb_forall in H. specialize (H _ (in_map pair _ _ H1)).
  rewrite forallb_forall in H. specialize (H _ (in_map pair _ _ H2)).
  cbn [pair fst snd] in H. rewrite C, String.eqb_refl in H. apply String.eqb_eq, H.
Qed.

Lemma call_inv m s v s' :
  call m s = Ok (v, s') -> In (m, v) (s_flog s) /\ s_lv s' = s_lv s /\ incl (s_flog s') (s_flog s).
Proof.
  unfold call. destruct (s_flog s) as [|[m' v'] r]; [discriminate|].
  destruct (String.eqb m m') eqn:E; [|discriminate]. apply String.eqb_eq in E as <-.
  intros [= <- <-]. cbn [s_lv s_flog]. auto using in_eq, incl_tl, incl_refl.
Qed.

Lemma draw_inv n s v s' :
  draw n s = Ok (v, s') -> 0 <= v < n /\ s_lv s' = s_lv s /\ s_flog s' = s_flog s.
Proof.
  unfold draw. destruct (s_draws s) as [|[n' v'] r]; [discriminate|].
  destruct ((n =? n') && (0 <=? v') && (v' <? n)) eqn:E; [|discriminate].
  intros [= <- <-]. cbn [s_lv s_flog]. repeat split; lia.
Qed.

Lemma fake_email_inv y m s e s' :
  fake_email y m s = Ok (e, s') ->
  s_lv s' = s_lv s /\
  match names_for m (s_lv s) with
  | Some (f, l) =>
    exists t yy dom, 0 <= t < n_templates /\ 0 <= yy < n_years /\
      In ("safe_domain_name"%string, dom) (s_flog s) /\
      email_matching f l t (y - 80 + yy) dom = Ok e
  | None => In ("ascii_safe_email"%string, e) (s_flog s)
  end.
Proof.
  unfold fake_email.
  (* a method name is a long term (eight bits a character): named, so that the steps do not copy it *)
  set (sd := "safe_domain_name"%string). set (ae := "ascii_safe_email"%string).
  destruct (names_for m (s_lv s)) as [[f l]|]; intros H.
  - apply bind_Ok in H as ([t s1] & D1 & H). apply bind_Ok in H as ([dom s2] & C1 & H).
    apply bind_Ok in H as ([yy s3] & D2 & H). apply bind_Ok in H as (e0 & EM & [= <- <-]).
    apply draw_inv in D1 as (B1 & L1 & F1). apply call_inv in C1 as (I1 & L2 & _).
    apply draw_inv in D2 as (B2 & L3 & _). rewrite F1 in I1.
    split; [congruence|]. exists t, yy, dom. auto.
  - apply call_inv in H as (I & L & _). auto.
Qed.

(* [ff]/[fl] are read from the log only when the names of the row are not used *)
Lemma fake_user_name_inv m s u s' :
  fake_user_name m s = Ok (u, s') ->
  s_lv s' = s_lv s /\
  exists host ff fl uuid,
    u = user_name_of m (s_lv s) host ff fl uuid /\
    In ("hostname"%string, host) (s_flog s) /\ In ("uuid4"%string, uuid) (s_flog s) /\
    (ff = [] /\ fl = [] \/
     In ("first_name"%string, ff) (s_flog s) /\ In ("last_name"%string, fl) (s_flog s)).
Proof.
  unfold fake_user_name.
  set (hn := "hostname"%string). set (u4 := "uuid4"%string). set (fn := "first_name"%string). set (ln := "last_name"%string).
  intros H.
  apply bind_Ok in H as ([host s1] & C0 & H). apply call_inv in C0 as (I0 & L0 & F0).
  destruct (names_for m (s_lv s)).
  - apply bind_Ok in H as ([uuid s2] & C1 & [= <- <-]). apply call_inv in C1 as (I1 & L1 & _).
    split; [congruence|]. exists host, [], [], uuid. auto 6.
  - apply bind_Ok in H as ([ff s2] & C1 & H). apply bind_Ok in H as ([fl s3] & C2 & H).
    apply bind_Ok in H as ([uuid s4] & C3 & [= <- <-]).
    apply call_inv in C1 as (I1 & L1 & F1). apply call_inv in C2 as (I2 & L2 & F2).
    apply call_inv in C3 as (I3 & L3 & _).
    split; [congruence|]. exists host, ff, fl, uuid. auto 10.
Qed.

Theorem fake_email_safe :
  forall this_year matching s e s',
    (forall v, In ("safe_domain_name"%string, v) (s_flog s) -> reserved v = true) ->
    (forall v, In ("ascii_safe_email"%string, v) (s_flog s) -> safe_addr v = true) ->
    fake_email this_year matching s = Ok (e, s') -> safe_addr e = true /\ count_at e = 1%nat.
Proof.
  intros y m s e s' HD HA H. apply fake_email_inv in H as [_ H].
  assert (safe_addr e = true) as S; [|auto using safe_addr_one_at].
  destruct (names_for m (s_lv s)) as [[f l]|] eqn:N; [|auto].
  destruct H as (t & yy & dom & _ & _ & I & EM). exact (email_matching_safe _ _ _ _ _ _ _ _ N (HD _ I) EM).
Qed.

Theorem fake_user_name_shape :
  forall matching s u s',
    (forall m v, In (m, v) (s_flog s) -> no_at v = true) ->
    (forall v, In ("hostname"%string, v) (s_flog s) -> (length v <= 79)%nat) ->
    fake_user_name matching s = Ok (u, s') -> (length u <= 80)%nat /\ count_at u = 1%nat.
Proof.
  intros m s u s' HN HH H.
  apply fake_user_name_inv in H as (_ & host & ff & fl & uuid & -> & I0 & I1 & N).
  assert (no_at ff = true /\ no_at fl = true) as [Nf Nl].
  { destruct N as [[-> ->]|[If Il]]; eauto. }
  destruct (username_shape host uuid ff fl (HH _ I0) (HN _ _ I0) (HN _ _ I1) Nf Nl m (s_lv s)) as (A & B & _).
  auto.
Qed.

(* _get_fake_data records its result under the canonical form of the spelling used, whichever way
   the recipe asked for the value (block `fake: X`, dotted `fake.X:`, formula `${{fake.X}}`: all of
   them are this step); the Faker calls and random draws leave local_vars alone. *)
Theorem fake_step_lv :
  forall tbl ni this_year q matching s v s',
    fake_step tbl ni this_year q matching s = Ok (v, s') -> s_lv s' = (canon q, v) :: s_lv s.
Proof.
  intros tbl ni y q m s v s'. unfold fake_step. destruct (negb (ascii_only q)); [discriminate|].
  destruct (get_fake tbl ni q) as [[src n]|]; [|discriminate].
  intros H. apply bind_Ok in H as ([v1 s1] & E & [= <- <-]). cbn [s_lv]. f_equal.
  destruct src.
  - apply call_inv in E as (_ & L & _). exact L.
  - destruct (String.eqb n "email"); [apply fake_email_inv in E as [L _]; exact L|].
    destruct (String.eqb n "user_name"); [apply fake_user_name_inv in E as [L _]; exact L|discriminate].
Qed.

Lemma run_fakes_keeps tbl ni y k fields :
  (forall q m, In (q, m) fields -> canon q <> k) ->
  forall s vs s', run_fakes tbl ni y fields s = Ok (vs, s') -> assoc k (s_lv s') = assoc k (s_lv s).
Proof.
  induction fields as [|[q m] fields IH]; intros HN s vs s'; cbn [run_fakes].
  - intros [= <- <-]. reflexivity.
  - intros H. apply bind_Ok in H as ([v s1] & E & H). apply bind_Ok in H as ([ws s2] & R & [= <- <-]).
    rewrite (IH (fun q' m' I => HN q' m' (or_intror I)) _ _ _ R).
    rewrite (fake_step_lv _ _ _ _ _ _ _ _ E). cbn [assoc].
    destruct (String.eqb_spec k (canon q)) as [->|]; [|reflexivity].
    destruct (HN q m (or_introl eq_refl) eq_refl).
Qed.

(* the clause "built from the names generated earlier in the row" *)
Theorem row_names_reach_contact :
  forall tbl ni y q1 m1 q2 m2 mid s v1 s1 v2 s2 vs s3,
    canon q1 = "firstname"%string -> canon q2 = "lastname"%string ->
    (forall q m, In (q, m) mid -> canon q <> "firstname"%string /\ canon q <> "lastname"%string) ->
    fake_step tbl ni y q1 m1 s = Ok (v1, s1) ->
    fake_step tbl ni y q2 m2 s1 = Ok (v2, s2) ->
    run_fakes tbl ni y mid s2 = Ok (vs, s3) ->
    assoc "firstname" (s_lv s3) = Some v1 /\ assoc "lastname" (s_lv s3) = Some v2.
Proof.
  intros tbl ni y q1 m1 q2 m2 mid s v1 s1 v2 s2 vs s3. set (fn := "firstname"%string). set (ln := "lastname"%string).
  intros C1 C2 HN E1 E2 R.
  rewrite (run_fakes_keeps tbl ni y fn mid (fun q m I => proj1 (HN q m I)) _ _ _ R).
  rewrite (run_fakes_keeps tbl ni y ln mid (fun q m I => proj2 (HN q m I)) _ _ _ R).
  rewrite (fake_step_lv _ _ _ _ _ _ _ _ E2), (fake_step_lv _ _ _ _ _ _ _ _ E1), C1, C2.
  cbn [assoc]. split; reflexivity.
Qed.

Definition fake_ops (fields : list (string * bool)) : list op :=
  map (fun f => OFake (fst f) (snd f)) fields.

Lemma run_ops_fakes tbl ni y fields rest stack s :
  run_ops tbl ni y (fake_ops fields ++ rest) stack s
  = (do '(vs, s1) <- run_fakes tbl ni y fields s;
     do ws <- run_ops tbl ni y rest stack s1;
     Ok (vs ++ ws)).
Proof.
  revert s. induction fields as [|[q m] fields IH]; intros s; cbn [fake_ops map app run_ops run_fakes fst snd].
  - cbn [bind]. destruct (run_ops tbl ni y rest stack s); reflexivity.
  - destruct (fake_step tbl ni y q m s) as [[v s1]|e]; cbn [bind]; [|reflexivity].
    fold (fake_ops fields). rewrite IH.
    destruct (run_fakes tbl ni y fields s1) as [[vs s2]|e]; cbn [bind]; [|reflexivity].
    destruct (run_ops tbl ni y rest stack s2); reflexivity.
Qed.

(* values Faker produced for locale en_TH (corpus/C18/k1_uuid_truncated_away.json): before the
   repair of C18-K1 both uuids gave the same username *)
Definition k1_lv : lvars :=
  [("lastname"%string, of_string "Lertsattayanusak"); ("firstname"%string, of_string "Pattatomporn")].
Definition k1_host : str := of_string "desktop-68.kongchayasukawut-lertsattayanusak.info".
Definition k1_uuid1 : str := of_string "ba2eaeb9-5c8e-474a-9d9b-d5ad0f343e7a".
Definition k1_uuid2 : str := of_string "04d14a19-0793-4130-8bbf-8f29cbf6c1f2".

(* a host name of 80 or more characters cannot be repaired by cutting the name part *)
Theorem username_shape_needs_host_bound :
  exists matching lv host ff fl uuid,
    length host = 80%nat /\ no_at host = true /\
    (length (user_name_of matching lv host ff fl uuid) > 80)%nat.
Proof.
  exists true, k1_lv, (repeat 104 80), [], [], k1_uuid1.
  repeat apply conj; vm_compute; reflexivity.
Qed.
