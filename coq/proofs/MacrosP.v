(* A dict is known by its names, in order, and its lookup function (dict_ext); dict_update and
   dedupe are characterised that way.  The loops of the model are instances of mapM.  expand,
   which de-duplicates at every level of nesting, and flat, which never does, return field lists
   that have the same effect on a dict (same_effect), a relation that concatenation preserves.
   expand and fs_flatten are bounded recursions over a graph, with a stack of the nodes entered:
   one invariant (room) shows that the fuel suffices, one lemma (no_descent_into_cycle) that a
   cycle within reach is rejected.  fs_flatten refines flatten on the tree that fs_tree builds. *)
From Coq Require Import List Bool Lia Relations Permutation.
From SFV Require Import Base Macros.
From SFV.P Require Import BaseP.
Import ListNotations.
Local Open Scope nat_scope.

Set Implicit Arguments.

Lemma mem_In k l : mem k l = true <-> In k l.
Proof.
  unfold mem. rewrite existsb_exists. split.
  - intros [x [Hx E]]. apply String.eqb_eq in E. subst. assumption.
  - intros H. exists k. split; [assumption|apply String.eqb_refl].
Qed.

Lemma mem_false k l : mem k l = false <-> ~ In k l.
Proof. rewrite <- mem_In, not_true_iff_false. reflexivity. Qed.

Lemma mem_app k a b : mem k (a ++ b) = mem k a || mem k b.
Proof. apply existsb_app. Qed.

Lemma filter_filter {A} (p q : A -> bool) l :
  filter p (filter q l) = filter (fun x => q x && p x) l.
Proof.
  induction l as [|x l IH]; cbn [filter]; [reflexivity|].
  destruct (q x); cbn [filter andb]; [destruct (p x)|]; rewrite IH; reflexivity.
Qed.

Lemma filter_id {A} (p : A -> bool) l : (forall x, In x l -> p x = true) -> filter p l = l.
Proof.
  induction l as [|x l IH]; cbn [filter]; intros H; [reflexivity|].
  rewrite (H x) by (left; reflexivity). f_equal. apply IH. intros y Hy. apply H. right. assumption.
Qed.

Lemma first_occ_In n ns : In n (first_occurrences ns) <-> In n ns.
Proof.
  induction ns as [|m r IH]; cbn [first_occurrences In]; [tauto|].
  destruct (String.eqb_spec n m) as [->|N]; [split; auto|].
  split; intros [H|H]; auto; right.
  - apply filter_In in H as [H _]. apply IH, H.
  - apply filter_In. split; [apply IH, H|]. apply negb_true_iff, String.eqb_neq, N.
Qed.

Lemma first_occ_NoDup ns : NoDup (first_occurrences ns).
Proof.
  induction ns as [|m r IH]; cbn [first_occurrences]; constructor.
  - rewrite filter_In, String.eqb_refl. intros [_ H]. discriminate.
  - apply NoDup_filter. assumption.
Qed.

Lemma first_occ_NoDup_id ns : NoDup ns -> first_occurrences ns = ns.
Proof.
  induction 1 as [|m r Hm Hr IH]; cbn [first_occurrences]; [reflexivity|].
  rewrite IH. f_equal. apply filter_id. intros x Hx.
  destruct (String.eqb_spec x m) as [->|]; [contradiction|reflexivity].
Qed.

Lemma first_occ_idem ns : first_occurrences (first_occurrences ns) = first_occurrences ns.
Proof. apply first_occ_NoDup_id, first_occ_NoDup. Qed.

Section DictP.
  Variable V : Type.
  Notation dict := (dict V).
  Implicit Types (d : dict) (l a b c : list (string * V)).

  Lemma names_app d1 d2 : names (d1 ++ d2) = names d1 ++ names d2.
  Proof. apply map_app. Qed.

  Lemma lookup_set k v d n :
    lookup n (dict_set d k v) = if String.eqb k n then Some v else lookup n d.
  Proof.
    induction d as [|[k' v'] r IH]; cbn [dict_set lookup]; [reflexivity|].
    destruct (String.eqb_spec k' k) as [->|N]; cbn [lookup].
    - destruct (String.eqb k n); reflexivity.
    - rewrite IH. destruct (String.eqb_spec k' n), (String.eqb_spec k n); congruence.
  Qed.

  Lemma names_set k v d :
    names (dict_set d k v) = if mem k (names d) then names d else names d ++ [k].
  Proof.
    unfold names, mem. induction d as [|[k' v'] r IH]; [reflexivity|].
    cbn [dict_set map fst existsb]. rewrite (String.eqb_sym k k').
    destruct (String.eqb k' k); cbn [map fst orb app]; [reflexivity|].
    rewrite IH. destruct (existsb _ (map fst r)); reflexivity.
  Qed.

  Lemma set_not_in k v d : ~ In k (names d) -> dict_set d k v = d ++ [(k, v)].
  Proof.
    induction d as [|[k' v'] r IH]; cbn [dict_set names map fst In app]; intros H; [reflexivity|].
    destruct (String.eqb_spec k' k); [destruct H; auto|]. rewrite IH; auto.
  Qed.

  Lemma lookup_In_names n d v : lookup n d = Some v -> In n (names d).
  Proof.
    induction d as [|[k v'] r IH]; cbn [lookup names map fst In]; [discriminate|].
    destruct (String.eqb_spec k n); auto.
  Qed.

  Lemma In_names_lookup n d : In n (names d) -> exists v, lookup n d = Some v.
  Proof.
    induction d as [|[k v'] r IH]; cbn [lookup names map fst In]; [tauto|].
    destruct (String.eqb_spec k n); [eauto|tauto].
  Qed.

  Lemma lookup_not_in n d : ~ In n (names d) -> lookup n d = None.
  Proof.
    intros H. destruct (lookup n d) eqn:E; [|reflexivity].
    apply lookup_In_names in E. contradiction.
  Qed.

  Lemma last_lookup_app n l1 l2 :
    last_lookup n (l1 ++ l2) =
    match last_lookup n l2 with Some x => Some x | None => last_lookup n l1 end.
  Proof.
    induction l1 as [|[k v] r IH]; cbn [app last_lookup].
    - destruct (last_lookup n l2); reflexivity.
    - rewrite IH. destruct (last_lookup n l2), (last_lookup n r); reflexivity.
  Qed.

  Lemma last_lookup_In_names n l v : last_lookup n l = Some v -> In n (names l).
  Proof.
    induction l as [|[k v'] r IH]; cbn [last_lookup names map fst In]; [discriminate|].
    destruct (last_lookup n r); [auto|]. destruct (String.eqb_spec k n); [auto|discriminate].
  Qed.

  Lemma last_lookup_not_in n l : ~ In n (names l) -> last_lookup n l = None.
  Proof.
    intros H. destruct (last_lookup n l) eqn:E; [|reflexivity].
    apply last_lookup_In_names in E. contradiction.
  Qed.

  Lemma last_lookup_NoDup n d : NoDup (names d) -> last_lookup n d = lookup n d.
  Proof.
    induction d as [|[k v] r IH]; cbn [last_lookup lookup names map fst]; [reflexivity|].
    intros H. apply NoDup_cons_iff in H as [Hk Hr].
    destruct (String.eqb_spec k n) as [->|].
    - rewrite last_lookup_not_in by assumption. reflexivity.
    - rewrite IH by assumption. destruct (lookup n r); reflexivity.
  Qed.

  (* dedupe is dict_update from the empty dict; the inductions need an arbitrary starting dict *)
  Lemma update_cons d kv l : dict_update d (kv :: l) = dict_update (dict_set d (fst kv) (snd kv)) l.
  Proof. reflexivity. Qed.

  Lemma update_app d l1 l2 : dict_update d (l1 ++ l2) = dict_update (dict_update d l1) l2.
  Proof. apply fold_left_app. Qed.

  Lemma update_lookup n l d :
    lookup n (dict_update d l) =
    match last_lookup n l with Some x => Some x | None => lookup n d end.
  Proof.
    revert d. induction l as [|[k v] r IH]; intros d; [reflexivity|].
    rewrite update_cons, IH. cbn [fst snd last_lookup]. rewrite lookup_set.
    destruct (last_lookup n r), (String.eqb k n); reflexivity.
  Qed.

  Lemma update_names l d :
    names (dict_update d l) =
    names d ++ filter (fun k => negb (mem k (names d))) (first_occurrences (names l)).
  Proof.
    revert d. induction l as [|[k v] r IH]; intros d; [symmetry; apply app_nil_r|].
    rewrite update_cons, IH. cbn [fst snd]. rewrite names_set.
    cbn [names map fst first_occurrences filter]. fold (names r). rewrite filter_filter.
    destruct (mem k (names d)) eqn:Hk; cbn [negb].
    - f_equal. apply filter_ext. intros x.
      destruct (String.eqb_spec x k) as [->|]; [rewrite Hk|]; reflexivity.
    - rewrite <- app_assoc. cbn [app]. do 2 f_equal. apply filter_ext. intros x.
      rewrite mem_app. cbn [mem existsb].
      rewrite orb_false_r, negb_orb. apply andb_comm.
  Qed.

  Lemma set_NoDup k v d : NoDup (names d) -> NoDup (names (dict_set d k v)).
  Proof.
    intros H. rewrite names_set. destruct (mem k (names d)) eqn:E; [assumption|].
    apply mem_false in E. apply (Permutation_NoDup (Permutation_cons_append _ k)).
    constructor; assumption.
  Qed.

  Lemma update_NoDup l d : NoDup (names d) -> NoDup (names (dict_update d l)).
  Proof.
    revert d. induction l as [|kv r IH]; intros d H; [assumption|].
    apply IH, set_NoDup, H.
  Qed.

  Lemma dict_ext d1 d2 :
    names d1 = names d2 -> NoDup (names d1) ->
    (forall n, lookup n d1 = lookup n d2) -> d1 = d2.
  Proof.
    revert d2. induction d1 as [|[k v] r IH]; intros [|[k2 v2] r2]; cbn [names map fst];
      intros Hn Hd Hl; try discriminate; [reflexivity|].
    injection Hn as <- Hr. fold (names r) (names r2) in *. apply NoDup_cons_iff in Hd as [Hk Hd].
    pose proof (Hl k) as Hv. cbn [lookup] in Hv. rewrite String.eqb_refl in Hv.
    injection Hv as <-. f_equal. apply IH; [assumption|assumption|].
    intros n. specialize (Hl n). cbn [lookup] in Hl.
    destruct (String.eqb_spec k n) as [->|]; [|assumption].
    rewrite !lookup_not_in; [reflexivity|rewrite <- Hr|]; assumption.
  Qed.

  Theorem dedupe_names l : names (dedupe l) = first_occurrences (names l).
  Proof. unfold dedupe. rewrite update_names. apply filter_id. reflexivity. Qed.

  Theorem dedupe_NoDup l : NoDup (names (dedupe l)).
  Proof. rewrite dedupe_names. apply first_occ_NoDup. Qed.

  Theorem dedupe_lookup n l : lookup n (dedupe l) = last_lookup n l.
  Proof. unfold dedupe. rewrite update_lookup. destruct (last_lookup n l); reflexivity. Qed.

  Lemma dedupe_In_names n l : In n (names (dedupe l)) <-> In n (names l).
  Proof. rewrite dedupe_names. apply first_occ_In. Qed.

  Lemma dedupe_NoDup_id l : NoDup (names l) -> dedupe l = l.
  Proof.
    intros H. apply dict_ext.
    - rewrite dedupe_names. apply first_occ_NoDup_id, H.
    - apply dedupe_NoDup.
    - intros n. rewrite dedupe_lookup. apply last_lookup_NoDup, H.
  Qed.

  Lemma dedupe_idem l : dedupe (dedupe l) = dedupe l.
  Proof. apply dedupe_NoDup_id, dedupe_NoDup. Qed.

  (* What expand returns is not the list of raw macro fields (it has been de-duplicated at every
     level), but the two cannot be told apart once they are fed into a dict.  Dicts with distinct
     names are all that occur: they start from []. *)
  Definition same_effect l1 l2 : Prop :=
    forall d, NoDup (names d) -> dict_update d l1 = dict_update d l2.

  Lemma same_effect_refl l : same_effect l l.
  Proof. intros d _. reflexivity. Qed.

  Lemma update_dedupe d l : NoDup (names d) -> dict_update d (dedupe l) = dict_update d l.
  Proof.
    intros H. apply dict_ext.
    - rewrite !update_names, dedupe_names, first_occ_idem. reflexivity.
    - apply update_NoDup, H.
    - intros n. rewrite !update_lookup, last_lookup_NoDup, dedupe_lookup by apply dedupe_NoDup.
      reflexivity.
  Qed.

  Lemma same_effect_dedupe l : same_effect (dedupe l) l.
  Proof. intros d. apply update_dedupe. Qed.

  Lemma same_effect_app a a' b b' :
    same_effect a a' -> same_effect b b' -> same_effect (a ++ b) (a' ++ b').
  Proof.
    intros Ha Hb d H. rewrite !update_app, (Ha d H). apply Hb, update_NoDup, H.
  Qed.

  Lemma same_effect_trans a b c : same_effect a b -> same_effect b c -> same_effect a c.
  Proof. intros H1 H2 d H. rewrite (H1 d H). apply H2, H. Qed.

  Lemma same_effect_dedupe_eq a b : same_effect a b -> dedupe a = dedupe b.
  Proof. intros H. apply H. constructor. Qed.

  Lemma dedupe_app_dedupe a b c : dedupe (a ++ dedupe b ++ c) = dedupe (a ++ b ++ c).
  Proof.
    apply same_effect_dedupe_eq. apply same_effect_app; [apply same_effect_refl|].
    apply same_effect_app; [apply same_effect_dedupe|apply same_effect_refl].
  Qed.
End DictP.

Definition rel_result {B C} (R : B -> C -> Prop) (r1 : result B) (r2 : result C) : Prop :=
  match r1, r2 with
  | Ok b, Ok c => R b c
  | Err e, Err e' => e = e'
  | _, _ => False
  end.

Lemma rel_result_eq B (r1 r2 : result B) : rel_result eq r1 r2 -> r1 = r2.
Proof. destruct r1, r2; cbn; congruence || contradiction. Qed.
Arguments rel_result_eq {B r1 r2}.

Lemma bind_rel B C B' C' (R : B -> C -> Prop) (R' : B' -> C' -> Prop) r1 r2 k1 k2 :
  rel_result R r1 r2 -> (forall b c, R b c -> rel_result R' (k1 b) (k2 c)) ->
  rel_result R' (bind r1 k1) (bind r2 k2).
Proof. destruct r1, r2; cbn; auto; contradiction. Qed.
Arguments bind_rel {B C B' C' R R' r1 r2 k1 k2}.

Lemma bind_not_err {A B} (r : result A) (k : A -> result B) e : bind r k <> Err e -> r <> Err e.
Proof. intros H C. rewrite C in H. exact (H eq_refl). Qed.

(* The loops of the model (over a template's includes, a file's include_file lines, a list of
   statements) all run a failing computation along a list and stop at the first error. *)
Fixpoint mapM {A B} (f : A -> result B) (l : list A) : result (list B) :=
  match l with
  | [] => Ok []
  | x :: r => do y <- f x; do ys <- mapM f r; Ok (y :: ys)
  end.

Section MapM.
  Context {A B : Type}.
  Implicit Types (f g : A -> result B) (l : list A).

  Lemma mapM_app f l1 l2 :
    mapM f (l1 ++ l2) = (do a <- mapM f l1; do b <- mapM f l2; Ok (a ++ b)).
  Proof.
    induction l1 as [|x r IH]; cbn [app mapM bind].
    - destruct (mapM f l2); reflexivity.
    - destruct (f x); cbn [bind]; [|reflexivity]. rewrite IH.
      destruct (mapM f r); cbn [bind]; [|reflexivity]. destruct (mapM f l2); reflexivity.
  Qed.

  Lemma mapM_err f l e : mapM f l = Err e -> exists x, In x l /\ f x = Err e.
  Proof.
    induction l as [|x r IH]; cbn [mapM In]; [discriminate|].
    destruct (f x) eqn:E; cbn [bind]; [|intros [= ->]; eauto].
    destruct (mapM f r); cbn [bind]; [discriminate|].
    intros H. destruct (IH H) as [y [Hy Hf]]. eauto.
  Qed.

  Lemma mapM_ok f l ys : mapM f l = Ok ys -> forall x, In x l -> exists y, f x = Ok y.
  Proof.
    revert ys. induction l as [|z r IH]; cbn [mapM In]; intros ys H x Hx; [contradiction|].
    destruct (f z) eqn:E; cbn [bind] in H; [|discriminate].
    destruct (mapM f r); cbn [bind] in H; [|discriminate].
    destruct Hx as [<-|Hx]; [eauto|eapply IH; [reflexivity|assumption]].
  Qed.

  (* [g] does what [f] does wherever [f] does not fail with [e0]: OutOfFuel for [f] with less
     fuel, Unsupported for [g] on a tree of files moved elsewhere *)
  Lemma mapM_agree e0 f g l :
    (forall x, f x <> Err e0 -> g x = f x) -> mapM f l <> Err e0 -> mapM g l = mapM f l.
  Proof.
    intros Hfg. induction l as [|x r IH]; cbn [mapM]; intros H; [reflexivity|].
    rewrite Hfg by (eapply bind_not_err, H). destruct (f x); cbn [bind] in *; [|reflexivity].
    rewrite IH; [reflexivity|]. eapply bind_not_err, H.
  Qed.
End MapM.

Lemma mapM_rel A B C (R : B -> C -> Prop) (f : A -> result B) (g : A -> result C) l :
  (forall x, rel_result R (f x) (g x)) -> rel_result (Forall2 R) (mapM f l) (mapM g l).
Proof.
  intros H. induction l as [|x r IH]; cbn [mapM]; [constructor|].
  apply (bind_rel (H x)). intros b c Hbc. apply (bind_rel IH). intros bs cs Hs.
  constructor; assumption.
Qed.

(* [expand] and [fs_flatten] descend along a relation (macro includes macro, file includes file)
   with a fuel and a stack of the nodes they are in; they refuse to enter a node that is on
   the stack. *)

(* If success with fuel S k at x means success with fuel k at every successor of x, there is no
   success where a cycle can be reached: the descent would go round it until the fuel is gone. *)
Lemma no_descent_into_cycle {A} (R : relation A) (ok : nat -> A -> Prop) a :
  (forall x, ~ ok 0 x) -> (forall k x y, ok (S k) x -> R x y -> ok k y) ->
  clos_trans _ R a a -> forall n x, clos_trans _ R x a -> ~ ok n x.
Proof.
  intros H0 HS Hc. induction n as [|n IH]; intros x Hx Hok; [exact (H0 x Hok)|].
  apply clos_trans_t1n in Hx. inversion Hx as [y Hxy|y z Hxy Hya]; subst.
  - exact (IH a Hc (HS _ _ _ Hok Hxy)).
  - exact (IH y (clos_t1n_trans _ _ _ _ Hya) (HS _ _ _ Hok Hxy)).
Qed.

(* A string literal is a large term, and every case analysis on a goal that shows one pays for
   it.  The error values of the model get names; a proof folds them after unfolding a model
   function, or sees the function only through an equation stated with them. *)
Definition unknown_error : err := DGE "Cannot find macro".
Definition recursion_error : err := DGE "Macro calls itself".
Definition missing_error : err := DGE "No definition supplied for option".
Definition load_error : err := DGE "Cannot load include file".
Definition self_error : err := DGE "Include file includes itself".

Section MacroP.
  Variables P F V : Type.
  Notation field := (field P).
  Notation menv := (menv P F).
  Notation res := (result (list field * list F)).
  Implicit Types (env : menv) (parents ns : list string) (name : string).

  Lemma incl_all_mapM (f : string -> res) ns :
    incl_all f ns = (do xs <- mapM f ns; Ok (concat (map fst xs), concat (map snd xs))).
  Proof.
    induction ns as [|n r IH]; cbn [incl_all mapM]; [reflexivity|].
    destruct (f n) as [[a b]|e]; cbn [bind]; [|reflexivity]. rewrite IH.
    destruct (mapM f r); reflexivity.
  Qed.

  Lemma incl_all_app (f : string -> res) ns1 ns2 :
    incl_all f (ns1 ++ ns2) =
    (do '(a, b) <- incl_all f ns1; do '(a', b') <- incl_all f ns2; Ok (a ++ a', b ++ b')).
  Proof.
    rewrite !incl_all_mapM, mapM_app.
    destruct (mapM f ns1); cbn [bind]; [|reflexivity].
    destruct (mapM f ns2); cbn [bind]; [|reflexivity].
    rewrite !map_app, !concat_app. reflexivity.
  Qed.

  Lemma incl_all_err (f : string -> res) ns e :
    incl_all f ns = Err e -> exists n, In n ns /\ f n = Err e.
  Proof.
    rewrite incl_all_mapM. destruct (mapM f ns) eqn:E; [discriminate|].
    intros [= <-]. apply mapM_err, E.
  Qed.

  Lemma incl_all_ok (f : string -> res) ns r :
    incl_all f ns = Ok r -> forall n, In n ns -> exists x, f n = Ok x.
  Proof.
    rewrite incl_all_mapM. destruct (mapM f ns) eqn:E; [|discriminate]. intros _. eapply mapM_ok, E.
  Qed.

  Lemma incl_all_has_err (f : string -> res) ns n e :
    In n ns -> f n = Err e -> exists e', incl_all f ns = Err e'.
  Proof.
    intros Hn Hf. destruct (incl_all f ns) as [r|e'] eqn:E; [|eauto].
    destruct (incl_all_ok _ _ E n Hn) as [x Hx]. congruence.
  Qed.

  Lemma incl_all_agree e0 (f g : string -> res) ns :
    (forall n, f n <> Err e0 -> g n = f n) -> incl_all f ns <> Err e0 ->
    incl_all g ns = incl_all f ns.
  Proof.
    rewrite !incl_all_mapM. intros Hfg H.
    rewrite (mapM_agree (e0:=e0) f g); [reflexivity|assumption|]. eapply bind_not_err, H.
  Qed.

  (* expand vs. flat: same errors, same friends, and field lists with the same effect *)
  Definition same_fields (x y : list field * list F) : Prop :=
    let '(fs, fr) := x in let '(raw, fr') := y in fr = fr' /\ same_effect fs raw.

  Lemma incl_all_rel (f g : string -> res) ns :
    (forall n, rel_result same_fields (f n) (g n)) ->
    rel_result same_fields (incl_all f ns) (incl_all g ns).
  Proof.
    intros H. induction ns as [|n r IH]; cbn [incl_all].
    - split; [reflexivity|apply same_effect_refl].
    - apply (bind_rel (H n)). intros [a b] [a' b'] [-> Ha].
      apply (bind_rel IH). intros [c d] [c' d'] [-> Hc].
      split; [reflexivity|apply same_effect_app; assumption].
  Qed.

  Lemma expand_flat fuel env parents name :
    rel_result same_fields (expand fuel env parents name) (flat fuel env parents name).
  Proof.
    revert parents name. induction fuel as [|k IH]; intros parents name; cbn [expand flat].
    - reflexivity.
    - fold unknown_error recursion_error.
      destruct (find_macro name env) as [m|]; [|reflexivity].
      destruct (mem name parents); [reflexivity|].
      apply (bind_rel (incl_all_rel _ _ _ (IH (parents ++ [name])))).
      intros [fs fr] [raw fr'] [-> H]. split; [reflexivity|].
      eapply same_effect_trans; [apply same_effect_dedupe|].
      apply same_effect_app; [assumption|apply same_effect_refl].
  Qed.

  Theorem macro_inline_eq env t inc own fro :
    parse_stmt env (SObj t inc own fro) =
    (do '(raw, fr) <- flat_includes env inc; Ok (PObj t (dedupe (raw ++ own)) (fr ++ fro))).
  Proof.
    apply rel_result_eq, (bind_rel (incl_all_rel _ _ _ (expand_flat _ env []))).
    intros [fs fr] [raw fr'] [-> H]. cbn [rel_result]. f_equal.
    apply same_effect_dedupe_eq, same_effect_app; [assumption|apply same_effect_refl].
  Qed.

  Lemma expand_fuel_ok env fuel parents name e :
    room (names env) parents fuel ->
    expand fuel env parents name = Err e -> exists k, e = DGE k.
  Proof.
    revert parents name. induction fuel as [|k IH]; intros parents name Hr;
      [destruct (room_0 Hr)|].
    cbn [expand]. fold unknown_error recursion_error.
    destruct (find_macro name env) as [m|] eqn:Hm; [|intros [= <-]; unfold unknown_error; eauto].
    destruct (mem name parents) eqn:Hp; [intros [= <-]; unfold recursion_error; eauto|].
    destruct (incl_all _ (m_include m)) as [[a b]|e'] eqn:E; cbn [bind]; [discriminate|].
    intros [= ->]. apply incl_all_err in E as [n [_ E]]. revert E. apply IH.
    apply room_push; [assumption|eapply last_lookup_In_names, Hm|apply mem_false, Hp].
  Qed.

  Lemma expand_fuel_top env name e :
    expand (macro_fuel env) env [] name = Err e -> exists k, e = DGE k.
  Proof. apply expand_fuel_ok, room_start. Qed.

  Lemma expand_fuel_mono env fuel fuel' parents name :
    fuel <= fuel' -> expand fuel env parents name <> Err OutOfFuel ->
    expand fuel' env parents name = expand fuel env parents name.
  Proof.
    revert fuel' parents name. induction fuel as [|k IH]; intros fuel' parents name Hle H;
      [exfalso; apply H; reflexivity|].
    destruct fuel' as [|k']; [lia|]. cbn [expand] in *. fold unknown_error recursion_error in *.
    destruct (find_macro name env) as [m|]; [|reflexivity].
    destruct (mem name parents); [reflexivity|].
    (* the two sides differ in the first argument of bind (plain f_equal finds that too, with a
       proof term several times the size) *)
    apply (f_equal (fun r => bind r _)), incl_all_agree with (e0 := OutOfFuel).
    - intros n. apply IH. lia.
    - eapply bind_not_err, H.
  Qed.

  Theorem parse_stmt_err env s e : parse_stmt env s = Err e -> exists k, e = DGE k.
  Proof.
    destruct s as [t inc own fro|n v]; cbn [parse_stmt]; [|discriminate].
    destruct (expand_includes env inc) as [[a b]|e1] eqn:E; cbn [bind]; [discriminate|].
    intros [= ->]. apply incl_all_err in E as [n [_ E]]. eapply expand_fuel_top, E.
  Qed.

  Lemma parse_stmt_rejected env t inc own fro n :
    In n inc -> (forall r, expand (macro_fuel env) env [] n <> Ok r) ->
    exists k, parse_stmt env (SObj t inc own fro) = Err (DGE k).
  Proof.
    intros Hn Hf. destruct (parse_stmt env (SObj t inc own fro)) as [r|e] eqn:E.
    - exfalso. cbn [parse_stmt] in E. destruct (expand_includes env inc) eqn:E'; [|discriminate].
      destruct (incl_all_ok _ _ E' n Hn) as [x Hx]. exact (Hf x Hx).
    - apply parse_stmt_err in E as [k ->]. eauto.
  Qed.

  Definition calls env (a b : string) : Prop :=
    exists m, find_macro a env = Some m /\ In b (m_include m).

  Lemma expand_ok_calls env k a b :
    (exists ps r, expand (S k) env ps a = Ok r) -> calls env a b ->
    exists ps r, expand k env ps b = Ok r.
  Proof.
    cbn [expand]. fold unknown_error recursion_error.
    intros (ps & r & H) (m & Hm & Hb). rewrite Hm in H.
    destruct (mem a ps); [discriminate|].
    destruct (incl_all _ (m_include m)) eqn:E; [|discriminate].
    destruct (incl_all_ok _ _ E b Hb) as [x Hx]. eauto.
  Qed.

  (* with any fuel and any stack: a macro from which a cycle can be reached never expands *)
  Theorem expand_cycle_fails env x a :
    clos_refl_trans _ (calls env) x a -> clos_trans _ (calls env) a a ->
    forall n ps r, expand n env ps x <> Ok r.
  Proof.
    intros Hr Hc n ps r H.
    eapply no_descent_into_cycle with (ok := fun n x => exists ps r, expand n env ps x = Ok r).
    - intros x' (ps' & r' & H'). discriminate.
    - intros k. apply expand_ok_calls.
    - exact Hc.
    - eapply clos_rt_t; eassumption.
    - eauto.
  Qed.

  Lemma parse_stmts_mapM env l : parse_stmts env l = mapM (parse_stmt env) l.
  Proof. induction l as [|s r IH]; cbn [parse_stmts mapM]; [|rewrite IH]; reflexivity. Qed.

  Lemma parse_stmts_app env l1 l2 :
    parse_stmts env (l1 ++ l2) =
    (do a <- parse_stmts env l1; do b <- parse_stmts env l2; Ok (a ++ b)).
  Proof. rewrite !parse_stmts_mapM. apply mapM_app. Qed.

  Notation file := (file P F V).
  Notation optdecl := (optdecl V).
  Notation flat3 := (flat3 P F V).
  Implicit Types (incs : list (option file)) (opts decls : list optdecl) (user plugin : dict V).

  (* What a file contributes is a triple of lists (statements, option declarations, macros);
     contributions are put one after the other component by component.  The model writes that
     out with a pattern for each triple; the proofs name it, so that a contribution can stay a
     variable. *)
  Definition app3 (x y : flat3) : flat3 :=
    let '(s1, o1, m1) := x in let '(s2, o2, m2) := y in (s1 ++ s2, o1 ++ o2, m1 ++ m2).

  Lemma app3_assoc x y z : app3 (app3 x y) z = app3 x (app3 y z).
  Proof.
    destruct x as [[? ?] ?], y as [[? ?] ?], z as [[? ?] ?]. cbn [app3].
    rewrite <- !app_assoc. reflexivity.
  Qed.

  Lemma bind_app3 (r1 r2 : result flat3) :
    (do '(s1, o1, m1) <- r1; do '(s2, o2, m2) <- r2; Ok (s1 ++ s2, o1 ++ o2, m1 ++ m2)) =
    (do x <- r1; do y <- r2; Ok (app3 x y)).
  Proof. destruct r1 as [[[? ?] ?]|]; [|reflexivity]. destruct r2 as [[[? ?] ?]|]; reflexivity. Qed.

  Lemma flatten_incs_cons g (r : list (option file)) :
    flatten_incs (Some g :: r) = (do x <- flatten g; do y <- flatten_incs r; Ok (app3 x y)).
  Proof. exact (bind_app3 (flatten g) (flatten_incs r)). Qed.

  Lemma flatten_unfold incs opts macs stmts :
    flatten (File incs opts macs stmts) =
    (do '(s, o, m) <- flatten_incs incs; Ok (s ++ stmts, o ++ opts, m ++ macs)).
  Proof. reflexivity. Qed.

  Lemma flatten_File incs opts macs stmts :
    flatten (File incs opts macs stmts) =
    (do x <- flatten_incs incs; Ok (app3 x (stmts, opts, macs))).
  Proof. rewrite flatten_unfold. destruct (flatten_incs incs) as [[[? ?] ?]|]; reflexivity. Qed.

  Lemma flatten_incs_app (l1 l2 : list (option file)) :
    flatten_incs (l1 ++ l2) =
    (do x <- flatten_incs l1; do y <- flatten_incs l2; Ok (app3 x y)).
  Proof.
    induction l1 as [|[h|] r IH]; cbn [app].
    - cbn [flatten_incs bind]. destruct (flatten_incs l2) as [[[? ?] ?]|]; reflexivity.
    - rewrite !flatten_incs_cons, IH. destruct (flatten h); [|reflexivity].
      destruct (flatten_incs r); [|reflexivity]. destruct (flatten_incs l2); [|reflexivity].
      cbn [bind]. rewrite app3_assoc. reflexivity.
    - reflexivity.
  Qed.

  Theorem include_last_inline incs g opts macs stmts s1 o1 m1 :
    flatten g = Ok (s1, o1, m1) ->
    flatten (File (incs ++ [Some g]) opts macs stmts) =
    flatten (File incs (o1 ++ opts) (m1 ++ macs) (s1 ++ stmts)).
  Proof.
    intros H. rewrite !flatten_File, flatten_incs_app, flatten_incs_cons, H.
    destruct (flatten_incs incs); [|reflexivity]. cbn [flatten_incs bind].
    rewrite app3_assoc. cbn [app3]. rewrite !app_nil_r. reflexivity.
  Qed.

  Theorem parse_recipe_flatten (f1 f2 : file) :
    flatten f1 = flatten f2 -> parse_recipe f1 = parse_recipe f2.
  Proof. unfold parse_recipe. intros ->. reflexivity. Qed.

  Definition opt_value (user : dict V) (d : optdecl) : option V :=
    match lookup (o_name d) user with Some v => Some v | None => o_default d end.

  Lemma opt_value_None user d :
    opt_value user d = None <-> lookup (o_name d) user = None /\ o_default d = None.
  Proof. unfold opt_value. destruct (lookup (o_name d) user); intuition congruence. Qed.

  Lemma last_decl_In n decls d :
    last_decl n decls = Some d -> In d decls /\ o_name d = n.
  Proof.
    induction decls as [|d0 r IH]; cbn [last_decl In]; [discriminate|].
    destruct (last_decl n r) as [x|].
    - intros [= ->]. destruct (IH eq_refl). auto.
    - destruct (String.eqb_spec (o_name d0) n); [intros [= ->]; auto|discriminate].
  Qed.

  Lemma last_decl_declared n decls :
    In n (map (@o_name V) decls) -> exists d, last_decl n decls = Some d.
  Proof.
    induction decls as [|d0 r IH]; cbn [last_decl map In]; [tauto|].
    intros [H|H].
    - destruct (last_decl n r); [eauto|]. rewrite H, String.eqb_refl. eauto.
    - destruct (IH H) as [d ->]. eauto.
  Qed.

  Lemma last_decl_unique decls d :
    NoDup (map (@o_name V) decls) -> In d decls -> last_decl (o_name d) decls = Some d.
  Proof.
    induction decls as [|d0 r IH]; cbn [last_decl map In]; [tauto|].
    intros Hd H. apply NoDup_cons_iff in Hd as [Hn Hr]. destruct H as [->|H].
    - destruct (last_decl (o_name d) r) as [x|] eqn:E; [|rewrite String.eqb_refl; reflexivity].
      apply last_decl_In in E as [Hx Hnx]. destruct Hn. rewrite <- Hnx. apply in_map, Hx.
    - rewrite IH by assumption. reflexivity.
  Qed.

  Lemma merge_loop_cons d (r : list optdecl) user o :
    merge_loop (d :: r) user o =
    match opt_value user d with
    | Some v => merge_loop r user (dict_set o (o_name d) v)
    | None => Err missing_error
    end.
  Proof.
    unfold opt_value. cbn [merge_loop]. fold missing_error.
    destruct (lookup (o_name d) user); reflexivity.
  Qed.

  Lemma merge_loop_value decls user o0 o n :
    merge_loop decls user o0 = Ok o ->
    lookup n o = match last_decl n decls with
                 | Some d => opt_value user d
                 | None => lookup n o0
                 end.
  Proof.
    revert o0. induction decls as [|d r IH]; intros o0; [intros [= ->]; reflexivity|].
    rewrite merge_loop_cons. cbn [last_decl]. destruct (opt_value user d) eqn:E; [|discriminate].
    intros H. rewrite (IH _ H), lookup_set. destruct (last_decl n r); [reflexivity|].
    destruct (String.eqb (o_name d) n); [symmetry; exact E|reflexivity].
  Qed.

  Lemma merge_loop_NoDup decls user o0 o :
    NoDup (names o0) -> merge_loop decls user o0 = Ok o -> NoDup (names o).
  Proof.
    revert o0. induction decls as [|d r IH]; intros o0 Hd; [intros [= <-]; assumption|].
    rewrite merge_loop_cons. destruct (opt_value user d); [|discriminate]. apply IH, set_NoDup, Hd.
  Qed.

  Lemma merge_loop_err decls user o0 e :
    merge_loop decls user o0 = Err e ->
    (exists k, e = DGE k) /\ exists d, In d decls /\ opt_value user d = None.
  Proof.
    revert o0. induction decls as [|d r IH]; intros o0; [discriminate|].
    rewrite merge_loop_cons. destruct (opt_value user d) eqn:E.
    - intros H. destruct (IH _ H) as [K [d' [Hin Hd']]]. split; [assumption|]. exists d'. cbn; auto.
    - intros [= <-]. split; [unfold missing_error; eauto|]. exists d. cbn; auto.
  Qed.

  Lemma merge_loop_ok (decls : list optdecl) user o0 :
    (forall d, In d decls -> opt_value user d <> None) ->
    exists o, merge_loop decls user o0 = Ok o.
  Proof.
    revert o0. induction decls as [|d r IH]; intros o0 H; [exists o0; reflexivity|].
    destruct (opt_value user d) as [v|] eqn:E; [|destruct (H d (or_introl eq_refl) E)].
    destruct (IH (dict_set o0 (o_name d) v)) as [o Ho]; [intros d' Hd'; apply H; right; exact Hd'|].
    exists o. rewrite merge_loop_cons, E. exact Ho.
  Qed.

  Lemma merge_loop_ok_inv decls user o0 o d :
    merge_loop decls user o0 = Ok o -> In d decls -> opt_value user d <> None.
  Proof.
    revert o0. induction decls as [|d0 r IH]; intros o0; [intros _ []|]. rewrite merge_loop_cons.
    destruct (opt_value user d0) eqn:E; [|discriminate].
    intros H [<-|Hin]; [congruence|eapply IH; eassumption].
  Qed.

  Lemma merge_options_ok decls user plugin o extra :
    merge_options decls user plugin = Ok (o, extra) ->
    merge_loop decls user plugin = Ok o /\
    extra = filter (fun k => negb (mem k (names o))) (names user).
  Proof.
    unfold merge_options.
    destruct (merge_loop decls user plugin); [intros [= <- <-]; auto|discriminate].
  Qed.

  Lemma merge_options_err decls user plugin e :
    merge_options decls user plugin = Err e <-> merge_loop decls user plugin = Err e.
  Proof.
    unfold merge_options. destruct (merge_loop decls user plugin); cbn [bind]; split; congruence.
  Qed.

  Lemma declared_option decls user plugin o extra n d :
    merge_options decls user plugin = Ok (o, extra) -> last_decl n decls = Some d ->
    o_name d = n /\ lookup n o = opt_value user d /\ opt_value user d <> None.
  Proof.
    intros H Hd. apply merge_options_ok in H as [H _]. destruct (last_decl_In _ _ Hd) as [Hin Hn].
    rewrite (merge_loop_value _ _ _ n H), Hd. eauto using merge_loop_ok_inv.
  Qed.

  Theorem option_value decls user plugin o extra n d :
    merge_options decls user plugin = Ok (o, extra) ->
    last_decl n decls = Some d ->
    lookup n o = match lookup n user with Some v => Some v | None => o_default d end.
  Proof. intros H Hd. destruct (declared_option _ _ _ _ H Hd) as (<- & -> & _). reflexivity. Qed.

  Theorem option_error_iff decls user plugin :
    (exists e, merge_options decls user plugin = Err e) <->
    (exists d, In d decls /\ lookup (o_name d) user = None /\ o_default d = None).
  Proof.
    split.
    - intros [e H]. apply merge_options_err, merge_loop_err in H as [_ [d [Hin Hd]]].
      exists d. split; [assumption|apply opt_value_None, Hd].
    - intros [d [Hin Hd]]. apply opt_value_None in Hd.
      destruct (merge_loop decls user plugin) eqn:E;
        [destruct (merge_loop_ok_inv _ _ _ _ E Hin Hd)|eexists; apply merge_options_err, E].
  Qed.

  Theorem option_error_kind decls user plugin e :
    merge_options decls user plugin = Err e -> exists k, e = DGE k.
  Proof. intros H. apply merge_options_err, merge_loop_err in H. tauto. Qed.

End MacroP.

Section NamespaceP.
  Variable V : Type.
  Notation scopes := (scopes V).
  Implicit Types (s : scopes) (n : string).

  Definition pick (a b : option V) : option V := match a with Some x => Some x | None => b end.

  Theorem resolve_spec n s :
    resolve n s =
    pick (last_lookup n (sc_funcs s)) (pick (last_lookup n (sc_vars s))
    (pick (last_lookup n (sc_plugins s)) (pick (last_lookup n (sc_fields s))
    (pick (last_lookup n (sc_objects s)) (pick (last_lookup n (sc_options s))
    (last_lookup n (sc_builtins s))))))).
  Proof.
    unfold resolve, field_vars, merge_dicts, layers. cbn [fold_left].
    rewrite !update_lookup. cbn [lookup]. unfold pick.
    destruct (last_lookup n (sc_builtins s)); reflexivity.
  Qed.

  Theorem resolve_not_closer n s :
    ~ closer_defines n s ->
    resolve n s = pick (last_lookup n (sc_options s)) (last_lookup n (sc_builtins s)).
  Proof.
    intros H. rewrite resolve_spec.
    (* each of the five closer scopes gives None, being one of the disjuncts of closer_defines *)
    assert (forall o : option V, (o <> None -> closer_defines n s) -> o = None) as N.
    { intros [x|] Ho; [destruct H; apply Ho; discriminate|reflexivity]. }
    unfold closer_defines in N.
    rewrite (N (last_lookup n (sc_funcs s))), (N (last_lookup n (sc_vars s))),
      (N (last_lookup n (sc_plugins s))), (N (last_lookup n (sc_fields s))),
      (N (last_lookup n (sc_objects s))); auto 6.
  Qed.

  Lemma closer_with_options n s o : closer_defines n (with_options s o) <-> closer_defines n s.
  Proof. reflexivity. Qed.

  Theorem option_seen (decls : list (optdecl V)) user plugin o extra n d s :
    merge_options decls user plugin = Ok (o, extra) -> NoDup (names plugin) ->
    last_decl n decls = Some d -> ~ closer_defines n s ->
    resolve n (with_options s o) =
    match lookup n user with Some v => Some v | None => o_default d end /\
    resolve n (with_options s o) <> None.
  Proof.
    intros H Hp Hd Hc. destruct (declared_option _ _ _ _ H Hd) as (_ & Hv & Hs).
    rewrite <- Hv in Hs.
    (* no closer scope has n, the options hold each name once, and they hold n *)
    assert (resolve n (with_options s o) = lookup n o) as ->.
    { apply merge_options_ok in H as [H _].
      rewrite resolve_not_closer by (rewrite closer_with_options; exact Hc).
      cbn [with_options sc_options sc_builtins].
      rewrite (last_lookup_NoDup _ _ (merge_loop_NoDup _ _ _ Hp H)).
      destruct (lookup n o); [reflexivity|destruct (Hs eq_refl)]. }
    split; [exact (option_value _ _ _ _ H Hd)|exact Hs].
  Qed.
End NamespaceP.

Lemma path_eqb_eq (a b : path) : path_eqb a b = true <-> a = b.
Proof.
  unfold path_eqb. revert b. induction a as [|x a IH]; intros [|y b]; cbn [list_eqb];
    try (split; discriminate); [tauto|].
  rewrite andb_true_iff, String.eqb_eq, IH. split; [intros [-> ->]; reflexivity|].
  intros [= -> ->]. auto.
Qed.

Lemma path_eqb_refl (a : path) : path_eqb a a = true.
Proof. apply path_eqb_eq. reflexivity. Qed.

Lemma path_eqb_neq (a b : path) : path_eqb a b = false <-> a <> b.
Proof. rewrite <- path_eqb_eq, not_true_iff_false. reflexivity. Qed.

Lemma mem_path_In (p : path) l : mem_path p l = true <-> In p l.
Proof.
  unfold mem_path. rewrite existsb_exists. split.
  - intros [x [Hx E]]. apply path_eqb_eq in E. subst. assumption.
  - intros H. exists p. split; [assumption|apply path_eqb_refl].
Qed.

Lemma mem_path_false (p : path) l : mem_path p l = false <-> ~ In p l.
Proof. rewrite <- mem_path_In, not_true_iff_false. reflexivity. Qed.

Section FsP.
  Variables P F V : Type.
  Notation fsys := (fsys P F V).
  Notation fsfile := (fsfile P F V).
  Notation flat3 := (flat3 P F V).
  Notation file := (file P F V).
  Implicit Types (fs : fsys) (p q : path) (stack : list path).

  Lemma fs_lookup_In p fs f : fs_lookup p fs = Some f -> In p (fs_paths fs).
  Proof.
    induction fs as [|[q g] r IH]; cbn [fs_lookup fs_paths map fst In]; [discriminate|].
    destruct (path_eqb q p) eqn:E; [apply path_eqb_eq in E|]; auto.
  Qed.

  (* one include_file line of file p: where it leads, once the checks of
     parse_included_file have passed *)
  Definition inc_target fs p stack (rel : list string) : result path :=
    match resolve_include fs p rel with
    | WEscape => Err Unsupported
    | WMissing => Err load_error
    | WPath q =>
      match fs_lookup q fs with
      | None => Err load_error
      | Some _ => if path_eqb q p || mem_path q stack then Err self_error else Ok q
      end
    end.

  Lemma fs_incs_mapM {A} fs p stack (rec : path -> result A) l :
    fs_incs fs p stack rec l = mapM (fun rel => do q <- inc_target fs p stack rel; rec q) l.
  Proof.
    induction l as [|rel r IH]; cbn [fs_incs mapM]; [reflexivity|]. rewrite IH.
    fold load_error self_error. unfold inc_target.
    destruct (resolve_include fs p rel) as [q| |]; try reflexivity.
    destruct (fs_lookup q fs); [|reflexivity].
    destruct (path_eqb q p || mem_path q stack); reflexivity.
  Qed.

  Lemma inc_target_spec fs p stack rel :
    match inc_target fs p stack rel with
    | Ok q => resolve_include fs p rel = WPath q /\ q <> p /\ ~ In q stack
    | Err e => e = Unsupported \/ exists k, e = DGE k
    end.
  Proof.
    assert (exists k, load_error = DGE k) by (unfold load_error; eauto).
    assert (exists k, self_error = DGE k) by (unfold self_error; eauto).
    unfold inc_target. destruct (resolve_include fs p rel) as [q| |]; auto.
    destruct (fs_lookup q fs); auto.
    destruct (path_eqb q p) eqn:E1; cbn [orb]; auto. destruct (mem_path q stack) eqn:E2; auto.
    apply path_eqb_neq in E1. apply mem_path_false in E2. auto.
  Qed.

  Lemma fs_flatten_S k fs stack p :
    fs_flatten (S k) fs stack p =
    match fs_lookup p fs with
    | None => Err load_error
    | Some (FsFile incs opts macs stmts) =>
      do parts <- mapM (fun rel => do q <- inc_target fs p stack rel;
                                   fs_flatten k fs (stack ++ [p]) q) incs;
      Ok (app3 (concat3 parts) (stmts, opts, macs))
    end.
  Proof.
    cbn [fs_flatten]. fold load_error.
    destruct (fs_lookup p fs) as [[incs opts macs stmts]|]; [|reflexivity]. rewrite fs_incs_mapM.
    destruct (mapM _ incs) as [parts|]; [|reflexivity]. cbn [bind].
    destruct (concat3 parts) as [[? ?] ?]. reflexivity.
  Qed.

  (* fuel: S (number of files) is enough, the nesting depth is bounded by the stack check *)
  Lemma fs_fuel_ok fs fuel stack p e :
    room (fs_paths fs) stack fuel -> ~ In p stack ->
    fs_flatten fuel fs stack p = Err e -> e = Unsupported \/ exists k, e = DGE k.
  Proof.
    revert stack p. induction fuel as [|k IH]; intros stack p Hr Hp; [destruct (room_0 Hr)|].
    rewrite fs_flatten_S.
    destruct (fs_lookup p fs) as [[incs opts macs stmts]|] eqn:Lp;
      [|intros [= <-]; unfold load_error; eauto].
    destruct (mapM _ incs) as [parts|e'] eqn:E; cbn [bind]; [discriminate|].
    intros [= ->]. apply mapM_err in E as [rel [_ E]].
    pose proof (inc_target_spec fs p stack rel) as T.
    destruct (inc_target fs p stack rel) as [q|e']; cbn [bind] in E; [|injection E as ->; exact T].
    destruct T as (_ & Hqp & Hqs). revert E. apply IH.
    - apply room_push; [assumption|eapply fs_lookup_In, Lp|assumption].
    - intros H. apply in_app_or in H as [H|[<-|[]]]; [exact (Hqs H)|exact (Hqp eq_refl)].
  Qed.

  Lemma fs_fuel_top fs p e :
    fs_flatten (fs_fuel fs) fs [] p = Err e -> e = Unsupported \/ exists k, e = DGE k.
  Proof. apply fs_fuel_ok; [apply room_start|intros []]. Qed.

  Lemma fs_fuel_mono fs fuel fuel' stack p :
    fuel <= fuel' -> fs_flatten fuel fs stack p <> Err OutOfFuel ->
    fs_flatten fuel' fs stack p = fs_flatten fuel fs stack p.
  Proof.
    revert fuel' stack p. induction fuel as [|k IH]; intros fuel' stack p Hle H;
      [exfalso; apply H; reflexivity|].
    destruct fuel' as [|k']; [lia|]. revert H. rewrite !fs_flatten_S.
    destruct (fs_lookup p fs) as [[incs opts macs stmts]|]; [|reflexivity]. intros H.
    apply (f_equal (fun r => bind r _)), mapM_agree with (e0 := OutOfFuel).
    - intros rel. destruct (inc_target fs p stack rel); cbn [bind]; [apply IH; lia|reflexivity].
    - eapply bind_not_err, H.
  Qed.

  Theorem fs_parse_recipe_err fs main e :
    fs_parse_recipe fs main = Err e -> e = Unsupported \/ exists k, e = DGE k.
  Proof.
    unfold fs_parse_recipe.
    destruct (fs_flatten (fs_fuel fs) fs [] main) as [[[s o] m]|e1] eqn:E; cbn [bind].
    - destruct (parse_stmts m s) eqn:E2; cbn [bind]; [discriminate|]. intros [= ->]. right.
      rewrite parse_stmts_mapM in E2. apply mapM_err in E2 as [s0 [_ E2]].
      eapply parse_stmt_err, E2.
    - intros [= ->]. eapply fs_fuel_top, E.
  Qed.

  Lemma concat3_incs (gs : list file) parts :
    Forall2 (fun g part => flatten g = Ok part) gs parts ->
    flatten_incs (map Some gs) = Ok (concat3 parts).
  Proof.
    induction 1 as [|g part gs parts Hg _ IH]; cbn [map]; [reflexivity|].
    rewrite flatten_incs_cons, Hg, IH. cbn [bind concat3].
    destruct part as [[? ?] ?], (concat3 parts) as [[? ?] ?]. reflexivity.
  Qed.

  Lemma fs_tree_refines fs fuel stack p :
    rel_result (fun g part => flatten g = Ok part)
               (fs_tree fuel fs stack p) (fs_flatten fuel fs stack p).
  Proof.
    revert stack p. induction fuel as [|k IH]; intros stack p; [reflexivity|].
    rewrite fs_flatten_S. cbn [fs_tree]. fold load_error.
    destruct (fs_lookup p fs) as [[incs opts macs stmts]|]; [|reflexivity].
    rewrite fs_incs_mapM. eapply bind_rel.
    - apply mapM_rel. intros rel.
      destruct (inc_target fs p stack rel); cbn [bind]; [apply IH|reflexivity].
    - intros gs parts Hf. cbn [rel_result]. rewrite flatten_File, (concat3_incs Hf). reflexivity.
  Qed.

  Theorem fs_flatten_tree fs fuel stack p :
    fs_flatten fuel fs stack p = (do g <- fs_tree fuel fs stack p; flatten g).
  Proof.
    pose proof (fs_tree_refines fs fuel stack p) as R.
    destruct (fs_tree fuel fs stack p), (fs_flatten fuel fs stack p); cbn [rel_result bind] in *;
      congruence || contradiction.
  Qed.

  Definition fs_includes fs (a b : path) : Prop :=
    exists incs opts macs stmts rel,
      fs_lookup a fs = Some (FsFile incs opts macs stmts) /\ In rel incs /\
      resolve_include fs a rel = WPath b.

  Lemma fs_ok_includes fs k a b :
    (exists st r, fs_flatten (S k) fs st a = Ok r) -> fs_includes fs a b ->
    exists st r, fs_flatten k fs st b = Ok r.
  Proof.
    intros (st & r & H) (incs & opts & macs & stmts & rel & La & Hin & W).
    rewrite fs_flatten_S, La in H. destruct (mapM _ incs) eqn:E; [|discriminate].
    destruct (mapM_ok _ _ E rel Hin) as [y Hy].
    pose proof (inc_target_spec fs a st rel) as T.
    destruct (inc_target fs a st rel) as [q|]; cbn [bind] in Hy; [|discriminate].
    destruct T as [T _]. rewrite W in T. injection T as <-. eauto.
  Qed.

  Theorem fs_cycle_fails fs x a :
    clos_refl_trans _ (fs_includes fs) x a -> clos_trans _ (fs_includes fs) a a ->
    forall n st r, fs_flatten n fs st x <> Ok r.
  Proof.
    intros Hr Hc n st r H.
    eapply no_descent_into_cycle with (ok := fun n x => exists st r, fs_flatten n fs st x = Ok r).
    - intros x' (st' & r' & H'). discriminate.
    - intros k. apply fs_ok_includes.
    - exact Hc.
    - eapply clos_rt_t; eassumption.
    - eauto.
  Qed.

  (* the result depends on the relative layout only: moving the whole tree of files into
     another directory changes nothing ("the same include_file path, read from a different
     directory, names a different file") *)
  Lemma path_eqb_app (pre a b : path) : path_eqb (pre ++ a) (pre ++ b) = path_eqb a b.
  Proof.
    unfold path_eqb. induction pre as [|x pre IH]; cbn [app list_eqb]; [reflexivity|].
    rewrite String.eqb_refl. exact IH.
  Qed.

  Lemma proper_prefix_app (pre d q : path) :
    proper_prefix (pre ++ d) (pre ++ q) = proper_prefix d q.
  Proof.
    induction pre as [|x pre IH]; cbn [app proper_prefix]; [reflexivity|].
    rewrite String.eqb_refl. exact IH.
  Qed.

  Lemma fs_lookup_relocate pre fs p : fs_lookup (pre ++ p) (relocate pre fs) = fs_lookup p fs.
  Proof.
    induction fs as [|[q g] r IH]; cbn [relocate map fs_lookup fst snd]; [reflexivity|].
    rewrite path_eqb_app. destruct (path_eqb q p); [reflexivity|exact IH].
  Qed.

  Lemma is_dir_relocate pre fs d : is_dir (relocate pre fs) (pre ++ d) = is_dir fs d.
  Proof.
    unfold is_dir, relocate.
    induction fs as [|[q g] r IH]; cbn [map existsb fst snd]; [reflexivity|].
    rewrite proper_prefix_app, IH. reflexivity.
  Qed.

  Lemma mem_path_relocate pre q stack :
    mem_path (pre ++ q) (map (app pre) stack) = mem_path q stack.
  Proof.
    unfold mem_path. induction stack as [|x r IH]; cbn [map existsb]; [reflexivity|].
    rewrite path_eqb_app, IH. reflexivity.
  Qed.

  Definition walked_map (f : path -> path) (w : walked) : walked :=
    match w with WPath q => WPath (f q) | WMissing => WMissing | WEscape => WEscape end.

  Lemma walk_relocate pre fs cur segs :
    walk fs cur segs <> WEscape ->
    walk (relocate pre fs) (pre ++ cur) segs = walked_map (app pre) (walk fs cur segs).
  Proof.
    revert cur. induction segs as [|sg r IH]; intros cur; cbn [walk walked_map]; [reflexivity|].
    destruct (String.eqb sg "..").
    - destruct cur as [|x c]; [congruence|]. intros H.
      destruct (pre ++ x :: c) as [|y t] eqn:E; [destruct pre; discriminate|]. rewrite <- E.
      rewrite removelast_app by discriminate. apply IH. assumption.
    - destruct r as [|sg2 r2].
      + intros _. cbn [walked_map]. rewrite app_assoc. reflexivity.
      + rewrite <- app_assoc, is_dir_relocate.
        destruct (is_dir fs (cur ++ [sg])); [apply IH|reflexivity].
  Qed.

  Lemma inc_target_relocate pre fs p stack rel :
    p <> [] -> inc_target fs p stack rel <> Err Unsupported ->
    inc_target (relocate pre fs) (pre ++ p) (map (app pre) stack) rel =
    (do q <- inc_target fs p stack rel; Ok (pre ++ q)).
  Proof.
    intros Hp. unfold inc_target, resolve_include. rewrite removelast_app by assumption. intros H.
    rewrite walk_relocate by (intros C; rewrite C in H; exact (H eq_refl)).
    destruct (walk fs (removelast p) (pure_segs rel)) as [q| |]; cbn [walked_map]; try reflexivity.
    rewrite fs_lookup_relocate, path_eqb_app, mem_path_relocate.
    destruct (fs_lookup q fs); [|reflexivity].
    destruct (path_eqb q p || mem_path q stack); reflexivity.
  Qed.

  Theorem fs_flatten_relocate pre fs fuel stack p :
    (forall q, In q (fs_paths fs) -> q <> []) ->
    fs_flatten fuel fs stack p <> Err Unsupported ->
    fs_flatten fuel (relocate pre fs) (map (app pre) stack) (pre ++ p) = fs_flatten fuel fs stack p.
  Proof.
    intros Hne. revert stack p. induction fuel as [|k IH]; intros stack p; [reflexivity|].
    rewrite !fs_flatten_S, fs_lookup_relocate.
    destruct (fs_lookup p fs) as [[incs opts macs stmts]|] eqn:L; [|reflexivity].
    intros H. apply (f_equal (fun r => bind r _)), mapM_agree with (e0 := Unsupported).
    - intros rel N. rewrite inc_target_relocate;
        [|apply Hne; eapply fs_lookup_In, L|eapply bind_not_err, N].
      destruct (inc_target fs p stack rel) as [q|]; cbn [bind] in *; [|reflexivity].
      change [pre ++ p] with (map (app pre) [p]). rewrite <- map_app. apply IH, N.
    - eapply bind_not_err, H.
  Qed.

  Lemma relocate_length pre fs : length (relocate pre fs) = length fs.
  Proof. apply map_length. Qed.

End FsP.

Section IncludeStringP.
  Local Open Scope string_scope.

  Lemma append_assoc_s (a b c : string) : (a ++ b) ++ c = a ++ b ++ c.
  Proof. induction a as [|x a IH]; cbn [append]; [|rewrite IH]; reflexivity. Qed.

  Lemma split_commas_nonnil s : split_commas s <> [].
  Proof.
    destruct s as [|c r]; cbn [split_commas]; [discriminate|].
    destruct (is_comma c); [discriminate|]. destruct (split_commas r); discriminate.
  Qed.

  Lemma split_commas_no_comma s : no_comma s = true -> split_commas s = [s].
  Proof.
    induction s as [|c r IH]; cbn [no_comma split_commas]; [reflexivity|].
    rewrite andb_true_iff, negb_true_iff. intros [-> H]. rewrite (IH H). reflexivity.
  Qed.

  Lemma split_commas_app a b :
    no_comma a = true -> split_commas (a ++ String "," b) = a :: split_commas b.
  Proof.
    induction a as [|c r IH]; cbn [no_comma append split_commas]; [reflexivity|].
    rewrite andb_true_iff, negb_true_iff. intros [-> H]. rewrite (IH H). reflexivity.
  Qed.

  Lemma no_comma_app a b : no_comma (a ++ b) = no_comma a && no_comma b.
  Proof.
    induction a as [|c r IH]; cbn [append no_comma]; [reflexivity|].
    rewrite IH. apply andb_assoc.
  Qed.

  Lemma all_ws_no_comma s : all_ws s = true -> no_comma s = true.
  Proof.
    induction s as [|c r IH]; cbn [all_ws no_comma]; [reflexivity|].
    rewrite andb_true_iff. intros [Hc H]. rewrite (IH H), andb_true_r.
    unfold is_comma. destruct (Ascii.eqb_spec c ",") as [->|]; [discriminate Hc|reflexivity].
  Qed.

  Lemma lstrip_ws_app l x : all_ws l = true -> lstrip (l ++ x) = lstrip x.
  Proof.
    induction l as [|c r IH]; cbn [all_ws append lstrip]; [reflexivity|].
    rewrite andb_true_iff. intros [-> H]. apply IH, H.
  Qed.

  Lemma lstrip_ws s : all_ws s = true -> lstrip s = "".
  Proof.
    induction s as [|c s IH]; cbn [all_ws lstrip]; [reflexivity|].
    rewrite andb_true_iff. intros [-> H]. apply IH, H.
  Qed.

  Lemma rstrip_ws r : all_ws r = true -> rstrip r = "".
  Proof.
    induction r as [|c r IH]; cbn [all_ws rstrip]; [reflexivity|].
    rewrite andb_true_iff. intros [-> H]. rewrite (IH H). reflexivity.
  Qed.

  Lemma rstrip_app_ws x r : all_ws r = true -> rstrip (x ++ r) = rstrip x.
  Proof.
    intros H. induction x as [|c x IH]; cbn [append rstrip]; [apply rstrip_ws, H|].
    rewrite IH. reflexivity.
  Qed.

  Definition item_ok (it : string * string * string) : Prop :=
    let '(l, n, r) := it in all_ws l = true /\ all_ws r = true /\ (n = "" \/ clean_name n).

  Lemma item_no_comma l n r : item_ok (l, n, r) -> no_comma (l ++ n ++ r) = true.
  Proof.
    intros [Hl [Hr Hn]]. rewrite !no_comma_app, (all_ws_no_comma _ Hl), (all_ws_no_comma _ Hr).
    destruct Hn as [->|[c [n' [-> [_ [_ ->]]]]]]; reflexivity.
  Qed.

  Lemma strip_padded l n r :
    all_ws l = true -> all_ws r = true -> clean_name n -> strip (l ++ n ++ r) = n.
  Proof.
    intros Hl Hr [c [n' [-> [Hc [Hn _]]]]]. unfold strip. rewrite lstrip_ws_app by assumption.
    cbn [append lstrip]. rewrite Hc. change (String c (n' ++ r)) with (String c n' ++ r).
    rewrite rstrip_app_ws by assumption. exact Hn.
  Qed.

  Lemma strip_blank l r : all_ws l = true -> all_ws r = true -> strip (l ++ "" ++ r) = "".
  Proof.
    intros Hl Hr. unfold strip. rewrite lstrip_ws_app by assumption. cbn [append].
    rewrite (lstrip_ws _ Hr). reflexivity.
  Qed.

  Lemma item_strip l n r : item_ok (l, n, r) -> strip (l ++ n ++ r) = n.
  Proof.
    intros [Hl [Hr [->|Hn]]]; [apply strip_blank|apply strip_padded]; assumption.
  Qed.

  Lemma clean_nonempty n : clean_name n -> nonempty n = true.
  Proof. intros [c [r [-> _]]]. reflexivity. Qed.

  Theorem split_includes_join items :
    Forall item_ok items ->
    split_includes (join_includes items) = filter nonempty (map (fun it => snd (fst it)) items).
  Proof.
    unfold split_includes. induction 1 as [|[[l n] r] rest Hit _ IH]; [reflexivity|].
    destruct rest as [|it2 rest'].
    - cbn [join_includes map fst snd]. rewrite split_commas_no_comma by apply item_no_comma, Hit.
      cbn [map]. rewrite (item_strip Hit). reflexivity.
    - change (join_includes ((l, n, r) :: it2 :: rest'))
        with (l ++ n ++ r ++ String "," (join_includes (it2 :: rest'))).
      rewrite <- (append_assoc_s n), <- append_assoc_s, split_commas_app
        by apply item_no_comma, Hit.
      cbn [map filter fst snd]. rewrite (item_strip Hit), IH. reflexivity.
  Qed.

  (* no include key / an empty string: nothing is included *)
  Lemma split_includes_empty : split_includes "" = [].
  Proof. reflexivity. Qed.
End IncludeStringP.

Section ChainP.
  Variable V : Type.
  Notation link := (link V).
  Implicit Types (l : link) (ls : list link).

  Lemma own_options_ok l o :
    own_options l = Ok o -> exists x, merge_options (l_decls l) (l_user l) [] = Ok (o, x).
  Proof.
    unfold own_options. destruct (merge_options (l_decls l) (l_user l) []) as [[o' x]|e];
      [intros [= <-]; eauto|discriminate].
  Qed.

  Lemma own_options_err l e :
    own_options l = Err e <-> merge_options (l_decls l) (l_user l) [] = Err e.
  Proof.
    unfold own_options. destruct (merge_options (l_decls l) (l_user l) []) as [[o' x]|e'];
      cbn [bind]; split; congruence.
  Qed.

  Lemma run_link_options prev l :
    (do '(o, _) <- run_link prev l; Ok o) = own_options l.
  Proof.
    unfold run_link, own_options.
    destruct (merge_options (l_decls l) (l_user l) []) as [[o x]|e]; reflexivity.
  Qed.

  Theorem chain_options_own ls : forall prev,
    chain_options prev ls = map (@own_options V) ls.
  Proof.
    unfold chain_options.
    induction ls as [|l r IH]; intros prev; cbn [run_chain map]; [reflexivity|].
    rewrite <- (run_link_options prev l).
    destruct (run_link prev l) as [[o c]|e]; cbn [map]; rewrite IH; reflexivity.
  Qed.

  (* the property's option rule at every link of every chain *)
  Theorem chain_option_rule ls prev k l :
    nth_error ls k = Some l ->
    (forall o n d, nth_error (chain_options prev ls) k = Some (Ok o) ->
                   last_decl n (l_decls l) = Some d ->
                   lookup n o = match lookup n (l_user l) with
                                | Some v => Some v
                                | None => o_default d
                                end) /\
    ((exists e, nth_error (chain_options prev ls) k = Some (Err e)) <->
     (exists d, In d (l_decls l) /\ lookup (o_name d) (l_user l) = None /\ o_default d = None)) /\
    (forall e, nth_error (chain_options prev ls) k = Some (Err e) -> exists m, e = DGE m).
  Proof.
    intros Hk. rewrite chain_options_own, (map_nth_error (@own_options V) k ls Hk). split; [|split].
    - intros o n d [= H] Hd. apply own_options_ok in H as [x H]. exact (option_value _ _ _ n H Hd).
    - rewrite <- (option_error_iff (l_decls l) (l_user l) []).
      split; intros [e H]; exists e; [injection H as H|f_equal]; apply own_options_err, H.
    - intros e [= H]. apply own_options_err in H. exact (option_error_kind _ _ _ H).
  Qed.
End ChainP.
