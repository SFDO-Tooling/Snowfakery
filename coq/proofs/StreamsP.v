(* The output layer of Streams.v loses no row (property C08): the database stream's buffer
   machine for every row list and every pair of thresholds; the inferred schema has a column for
   every key of a generated row; a multiplexer is its streams run alone; every listed value has
   an encoder; a run whose close() raised nothing is complete in all its outputs, and one that
   swallowed a close error need not be (finding K9). *)
From Coq Require Import ZArith List Bool String Lia.
From SFV Require Import Base Streams.
From SFV.P Require Import BaseP.
Import ListNotations. Open Scope Z_scope.

Lemma aget_aset {A} k k' (v : A) l :
  aget k' (aset k v l) = if String.eqb k k' then Some v else aget k' l.
Proof.
  induction l as [|[k0 v0] l IH]; cbn [aset aget]; [reflexivity|].
  destruct (String.eqb_spec k0 k) as [->|N]; cbn [aget].
  - destruct (String.eqb k k'); reflexivity.
  - rewrite IH. destruct (String.eqb_spec k k') as [<-|]; [|reflexivity].
    apply String.eqb_neq in N. rewrite N. reflexivity.
Qed.

Lemma aget_aset_same {A} k (v : A) l : aget k (aset k v l) = Some v.
Proof. rewrite aget_aset, String.eqb_refl. reflexivity. Qed.

Lemma lget_aset {A} k k' (v : list A) l :
  lget k' (aset k v l) = if String.eqb k k' then v else lget k' l.
Proof. unfold lget. rewrite aget_aset. destruct (String.eqb k k'); reflexivity. Qed.

Lemma aget_In {A} k (l : list (string * A)) : In k (map fst l) <-> aget k l <> None.
Proof.
  induction l as [|[k0 v0] l IH]; cbn [map fst In aget]; [split; [intros []|congruence]|].
  destruct (String.eqb_spec k0 k); [split; [discriminate|auto]|]. rewrite <- IH. tauto.
Qed.

Lemma aget_Some_In {A} k (v : A) l : aget k l = Some v -> In (k, v) l.
Proof.
  induction l as [|[k0 v0] l IH]; cbn [aget In]; [discriminate|].
  destruct (String.eqb_spec k0 k) as [->|]; [intros [= ->]|]; auto.
Qed.

Lemma aget_NoDup_In {A} k (v : A) l : NoDup (map fst l) -> In (k, v) l -> aget k l = Some v.
Proof.
  induction l as [|[k0 v0] l IH]; cbn [map fst aget In]; [easy|].
  intros ND [[= -> ->]|H]; [rewrite String.eqb_refl; reflexivity|].
  inversion ND as [|? ? N ND']. destruct (String.eqb_spec k0 k) as [->|]; [|auto].
  destruct N. exact (in_map fst _ _ H).
Qed.

Lemma map_fst_aset_present {A} k (v : A) l : In k (map fst l) -> map fst (aset k v l) = map fst l.
Proof.
  induction l as [|[k0 v0] l IH]; cbn [aset map fst In]; [easy|].
  destruct (String.eqb_spec k0 k); [reflexivity|]. intros [|H]; [easy|]. cbn [map fst]. rewrite IH; auto.
Qed.

Lemma assoc_ext {A} (l1 l2 : list (string * list A)) :
  NoDup (map fst l1) -> map fst l1 = map fst l2 ->
  (forall k, In k (map fst l1) -> lget k l1 = lget k l2) -> l1 = l2.
Proof.
  revert l2. induction l1 as [|[k v] l1 IH]; intros [|[k2 v2] l2] ND HK HV; try discriminate; [reflexivity|].
  cbn [map fst] in *. injection HK as <- HK. inversion ND as [|? ? N ND'].
  pose proof (HV k (or_introl eq_refl)) as E. unfold lget in E, HV. cbn [aget] in E, HV.
  rewrite String.eqb_refl in E. rewrite E. f_equal. apply (IH _ ND' HK).
  intros k' Hk'. specialize (HV k' (or_intror Hk')).
  destruct (String.eqb_spec k k') as [->|]; [contradiction|exact HV].
Qed.

Lemma total_cons {A} k (v : list A) l : total ((k, v) :: l) = Z.of_nat (length v) + total l.
Proof.
  unfold total. cbn [fold_left snd]. generalize (Z.of_nat (length v)). generalize 0.
  induction l as [|kv l IH]; intros a b; cbn [fold_left]; [lia|].
  rewrite !IH. lia.
Qed.

Lemma total_aset {A} k (v : list A) l :
  total (aset k v l) = total l - Z.of_nat (length (lget k l)) + Z.of_nat (length v).
Proof.
  unfold lget. induction l as [|[k0 v0] l IH]; cbn [aset aget].
  - rewrite total_cons. cbn [length]. lia.
  - destruct (String.eqb k0 k); rewrite !total_cons; [|rewrite IH]; lia.
Qed.

Lemma flush_tables_spec acc ti : forall buf db buf' db',
  flush_tables acc ti buf db = Ok (buf', db') ->
  (incl (map fst ti) (map fst db) -> map fst db' = map fst db) /\
  forall t,
    lget t db' = lget t db ++ match aget t ti with Some cols => map (project cols) (lget t buf) | None => [] end /\
    lget t buf' = match aget t ti with Some _ => [] | None => lget t buf end.
Proof.
  induction ti as [|[t0 cols] ti IH]; intros buf db buf' db' H; cbn [flush_tables aget] in *.
  - injection H as <- <-. split; [reflexivity|]. intros t. rewrite app_nil_r. auto.
  - destruct (forallb acc _); [|discriminate]. set (vals := map (project cols) (lget t0 buf)) in *.
    set (db1 := match vals with [] => db | _ => aset t0 (lget t0 db ++ vals) db end) in *.
    destruct (IH _ _ _ _ H) as [K S]. split.
    + cbn [map fst]. intros [Ht HK]%incl_cons_inv.
      assert (K1 : map fst db1 = map fst db)
        by (unfold db1; destruct vals; [reflexivity|apply map_fst_aset_present, Ht]).
      rewrite <- K1 in *. exact (K HK).
    + intros t. destruct (S t) as [-> ->].
      assert (D : lget t db1 = if String.eqb t0 t then lget t0 db ++ vals else lget t db).
      { unfold db1. destruct vals; [|apply lget_aset].
        destruct (String.eqb_spec t0 t) as [->|]; [rewrite app_nil_r|]; reflexivity. }
      rewrite D, lget_aset. destruct (String.eqb_spec t0 t) as [->|]; [|auto].
      destruct (aget t ti); cbn [map]; rewrite app_nil_r; auto.
Qed.

Lemma flush_tables_ok acc ti : forall buf db,
  (forall t cols, aget t ti = Some cols -> forallb acc (map (project cols) (lget t buf)) = true) ->
  exists r, flush_tables acc ti buf db = Ok r.
Proof.
  induction ti as [|[t cols] ti IH]; intros buf db HA; cbn [flush_tables]; [eexists; reflexivity|].
  rewrite (HA t cols) by (cbn [aget]; rewrite String.eqb_refl; reflexivity).
  apply IH. intros t' cols' H. rewrite lget_aset.
  destruct (String.eqb_spec t t') as [->|N]; [reflexivity|].
  apply HA. cbn [aget]. apply String.eqb_neq in N. rewrite N. exact H.
Qed.

Lemma flush_tables_total acc ti : forall buf db buf' db',
  flush_tables acc ti buf db = Ok (buf', db') -> total db' + total buf' = total db + total buf.
Proof.
  induction ti as [|[t cols] ti IH]; intros buf db buf' db' H; cbn [flush_tables] in H.
  - injection H as <- <-. reflexivity.
  - destruct (forallb _ _); [|discriminate]. apply IH in H. rewrite H, total_aset. cbn [length].
    destruct (map _ (lget t buf)) as [|v vs] eqn:E.
    + apply map_eq_nil in E. rewrite E. cbn [length]. lia.
    + rewrite total_aset, app_length, <- E, map_length. lia.
Qed.

Lemma rows_of_app t a b : rows_of t (a ++ b) = rows_of t a ++ rows_of t b.
Proof. unfold rows_of. rewrite filter_app, map_app. reflexivity. Qed.

Lemma lget_expected ti rows t :
  lget t (expected_db ti rows) =
  match aget t ti with Some cols => map (project cols) (rows_of t rows) | None => [] end.
Proof.
  unfold lget. induction ti as [|[a c] ti IH]; cbn [expected_db map aget fst snd]; [reflexivity|].
  destruct (String.eqb_spec a t) as [->|]; [reflexivity|exact IH].
Qed.

(* a row is counted once for every entry of its table *)
Lemma total_expected_cons ti t r rows :
  total (expected_db ti ((t, r) :: rows)) =
  total (expected_db ti rows) + Z.of_nat (count_occ string_dec (map fst ti) t).
Proof.
  induction ti as [|[a c] ti IH]; [reflexivity|].
  change (expected_db ((a, c) :: ti) ?x) with ((a, map (project c) (rows_of a x)) :: expected_db ti x).
  rewrite !total_cons, IH, !map_length. unfold rows_of. cbn [filter fst map count_occ].
  destruct (string_dec a t), (String.eqb_spec t a); try congruence; cbn [length map]; lia.
Qed.

Lemma total_expected ti rows :
  NoDup (map fst ti) -> (forall tr, In tr rows -> In (fst tr) (map fst ti)) ->
  total (expected_db ti rows) = Z.of_nat (length rows).
Proof.
  intros ND. induction rows as [|[t r] rows IH]; intros HK.
  - clear. induction ti as [|[a c] ti IH]; [reflexivity|].
    cbn [expected_db map]. rewrite total_cons. exact IH.
  - rewrite total_expected_cons, IH by (intros; apply HK; right; assumption).
    rewrite (proj1 (NoDup_count_occ' string_dec _) ND t (HK _ (or_introl eq_refl))). cbn [length]. lia.
Qed.

Definition dict := list (string * list row).

(* write_single_row: buffered_rows[t].append(r) *)
Definition push (t : string) (r : row) (buf : dict) : dict := aset t (lget t buf ++ [r]) buf.

(* what commit() looks at: any() over the keys of buffered_rows *)
Definition has_key (buf : dict) : bool := existsb (fun kv => negb (String.eqb (fst kv) "")) buf.

Section Machine.
  Variable acc : row -> bool.
  Variable hc : bool.
  Variables fl cl : Z.
  Variable ti : tables.
  Hypothesis ND : NoDup (map fst ti).

  Definition flush (P Q : dict -> dict -> Prop) : Prop :=
    forall buf db buf' db', P buf db -> flush_tables acc ti buf db = Ok (buf', db') -> Q buf' db'.

  (* the flush of write_row, commit() and close() are flushes under a condition *)
  Definition flush_if (b : bool) (s : dbst) : result dbst := if b then db_flush acc ti s else Ok s.

  Lemma flush_if_post (P Q : dict -> dict -> Prop) b s s' :
    flush P Q -> P (d_buf s) (d_db s) -> flush_if b s = Ok s' ->
    d_count s' = d_count s /\ if b then Q (d_buf s') (d_db s') else s' = s.
  Proof.
    intros HF HP H. destruct b; [|injection H as <-; auto]. unfold flush_if, db_flush in H.
    destruct (flush_tables acc ti (d_buf s) (d_db s)) as [[b d]|] eqn:E; [|discriminate].
    injection H as <-. split; [reflexivity|exact (HF _ _ _ _ HP E)].
  Qed.

  Lemma db_write_eq s t r :
    db_write acc hc fl cl ti s t r =
    if (fl =? 0) || (cl =? 0) then Err (Internal "ZeroDivisionError") else
    do s2 <- flush_if (d_count s mod fl =? 0) (mkDb (d_count s) (push t r (d_buf s)) (d_db s));
    do s3 <- flush_if ((d_count s2 mod cl =? 0) && hc && has_key (d_buf s2)) s2;
    Ok (mkDb (d_count s3 + 1) (d_buf s3) (d_db s3)).
  Proof.
    unfold db_write, db_commit, flush_if, has_key. destruct ((fl =? 0) || (cl =? 0)); [reflexivity|].
    cbn [d_count]. fold (push t r (d_buf s)).
    destruct (if d_count s mod fl =? 0 then _ else _) as [s2|]; [|reflexivity]. cbn [bind].
    destruct ((d_count s2 mod cl =? 0) && hc), (existsb _ (d_buf s2)); reflexivity.
  Qed.

  Lemma db_write_flushes (P Q : dict -> dict -> Prop) s t r s' :
    flush P Q -> (forall buf db, Q buf db -> P buf db) ->
    P (push t r (d_buf s)) (d_db s) -> db_write acc hc fl cl ti s t r = Ok s' ->
    d_count s' = d_count s + 1 /\ P (d_buf s') (d_db s') /\
    (d_count s mod fl = 0 -> Q (d_buf s') (d_db s')) /\
    (d_count s mod fl <> 0 -> d_count s mod cl <> 0 -> d_buf s' = push t r (d_buf s) /\ d_db s' = d_db s).
  Proof.
    intros HF HQ H1 H. rewrite db_write_eq in H. destruct ((fl =? 0) || (cl =? 0)); [discriminate|].
    destruct (flush_if _ _) as [s2|] eqn:E2; [|discriminate]. cbn [bind] in H.
    destruct (flush_if _ s2) as [s3|] eqn:E3; [|discriminate]. injection H as <-. cbn [d_count d_buf d_db].
    apply (flush_if_post P Q) in E2; [|assumption..]. destruct E2 as [C2 E2]. cbn [d_count] in C2.
    assert (P2 : P (d_buf s2) (d_db s2)) by (destruct (_ =? 0) in E2; [auto|subst s2; exact H1]).
    apply (flush_if_post P Q) in E3; [|assumption..]. destruct E3 as [C3 E3].
    assert (P3 : P (d_buf s3) (d_db s3) /\ (Q (d_buf s2) (d_db s2) -> Q (d_buf s3) (d_db s3)))
      by (destruct (_ && has_key _) in E3; [auto|subst s3; auto]).
    split; [lia|]. split; [apply P3|]. split.
    - intros B. apply P3. apply Z.eqb_eq in B. rewrite B in E2. exact E2.
    - intros B B'. apply Z.eqb_neq in B, B'. rewrite B in E2. subst s2. cbn [d_count] in E3.
      rewrite B' in E3. cbn [andb] in E3. subst s3. auto.
  Qed.

  Lemma db_write_total s t r s' : db_write acc hc fl cl ti s t r = Ok s' ->
    total (d_db s') + total (d_buf s') = total (d_db s) + total (d_buf s) + 1.
  Proof.
    intros H. set (n := total (d_db s) + total (d_buf s) + 1).
    apply (db_write_flushes (fun buf db => total db + total buf = n) (fun buf db => total db + total buf = n)) in H.
    - exact (proj1 (proj2 H)).
    - intros buf db buf' db' <- E. exact (flush_tables_total _ _ _ _ _ _ E).
    - auto.
    - unfold push. rewrite total_aset, app_length. cbn [length]. lia.
  Qed.

  (* the invariant: database ++ buffer = everything written so far (per table, projected) *)
  Definition Inv (done : list (string * row)) (buf db : dict) : Prop :=
    map fst db = map fst ti /\
    forall t cols, In (t, cols) ti ->
      lget t db ++ map (project cols) (lget t buf) = map (project cols) (rows_of t done).

  Lemma Inv_init : Inv [] [] (d_db (db_init ti)).
  Proof.
    split; [apply map_map|]. intros t cols H.
    change (d_db (db_init ti)) with (expected_db ti []). rewrite lget_expected, (aget_NoDup_In _ _ _ ND H). reflexivity.
  Qed.

  Lemma Inv_push done buf db t r : Inv done buf db -> Inv (done ++ [(t, r)]) (push t r buf) db.
  Proof.
    intros [HK HE]. split; [exact HK|]. intros t' cols H.
    rewrite rows_of_app, map_app, <- (HE t' cols H), <- app_assoc. f_equal.
    unfold push, rows_of. rewrite lget_aset. cbn [filter fst].
    destruct (String.eqb_spec t t') as [->|]; [apply map_app|symmetry; apply app_nil_r].
  Qed.

  Lemma Inv_empty_db done buf db : Inv done buf db ->
    (forall t, In t (map fst ti) -> lget t buf = []) -> db = expected_db ti done.
  Proof.
    intros [HK HE] HB. apply assoc_ext.
    - rewrite HK. exact ND.
    - rewrite HK. symmetry. apply map_map.
    - intros t Ht. rewrite HK in Ht. rewrite lget_expected. pose proof (HB t Ht) as B.
      apply aget_In in Ht. destruct (aget t ti) as [cols|] eqn:E; [|easy].
      rewrite <- (HE t cols (aget_Some_In _ _ _ E)), B. symmetry. apply app_nil_r.
  Qed.

  Lemma Inv_flush done :
    flush (Inv done) (fun buf db => Inv done buf db /\ db = expected_db ti done).
  Proof.
    intros buf db buf' db' [HK HE] H.
    assert (I : Inv done buf' db' /\ forall t, In t (map fst ti) -> lget t buf' = []).
    { destruct (flush_tables_spec _ _ _ _ _ _ H) as [K S]. split; [split|].
      - rewrite <- HK. apply K. rewrite HK. apply incl_refl.
      - intros t cols E. destruct (S t) as [-> ->]. rewrite (aget_NoDup_In _ _ _ ND E), app_nil_r. exact (HE t cols E).
      - intros t Ht. destruct (S t) as [_ ->]. apply aget_In in Ht. destruct (aget t ti); easy. }
    split; [apply I|]. apply (Inv_empty_db done buf'); apply I.
  Qed.

  Lemma Inv_write done s t r s' :
    Inv done (d_buf s) (d_db s) -> db_write acc hc fl cl ti s t r = Ok s' ->
    Inv (done ++ [(t, r)]) (d_buf s') (d_db s').
  Proof.
    intros HI H. apply (db_write_flushes _ _ _ _ _ _ (Inv_flush (done ++ [(t, r)]))) in H.
    - exact (proj1 (proj2 H)).
    - intros buf db Q. apply Q.
    - apply Inv_push, HI.
  Qed.

  Lemma db_writes_ind (R : list (string * row) -> dbst -> Prop) :
    (forall done s t r s', R done s -> db_write acc hc fl cl ti s t r = Ok s' -> R (done ++ [(t, r)]) s') ->
    forall rest done s s', R done s -> db_writes acc hc fl cl ti s rest = Ok s' -> R (done ++ rest) s'.
  Proof.
    intros step. induction rest as [|[t r] rest IH]; intros done s s' H0 H; cbn [db_writes] in H.
    - injection H as <-. rewrite app_nil_r. exact H0.
    - destruct (db_write acc hc fl cl ti s t r) as [s1|] eqn:E; [|discriminate].
      change (?a ++ ?x :: ?b) with (a ++ [x] ++ b). rewrite app_assoc. exact (IH _ _ _ (step _ _ _ _ _ H0 E) H).
  Qed.

  Lemma db_writes_Inv rows s : db_writes acc hc fl cl ti (db_init ti) rows = Ok s -> Inv rows (d_buf s) (d_db s).
  Proof. exact (db_writes_ind (fun done s => Inv done (d_buf s) (d_db s)) Inv_write rows [] _ _ Inv_init). Qed.

  Lemma no_key_lget (buf : dict) t : has_key buf = false -> t <> ""%string -> lget t buf = [].
  Proof.
    intros H N. unfold lget. induction buf as [|[k v] b IH]; cbn [aget]; [reflexivity|].
    cbn [has_key existsb fst] in H. apply orb_false_iff in H. destruct H as [H1 H2].
    apply negb_false_iff, String.eqb_eq in H1. subst k.
    destruct (String.eqb_spec "" t); [congruence|auto].
  Qed.

  Hypothesis names : forall t, In t (map fst ti) -> t <> ""%string.

  Lemma Inv_close done s s' : Inv done (d_buf s) (d_db s) -> db_close acc ti s = Ok s' ->
    d_db s' = expected_db ti done.
  Proof.
    intros I H. change (flush_if (has_key (d_buf s)) s = Ok s') in H.
    apply (flush_if_post _ _ _ _ _ (Inv_flush done) I) in H. destruct H as [_ H].
    destruct (has_key (d_buf s)) eqn:EX; [apply H|subst s'].
    apply (Inv_empty_db _ _ _ I). intros t Ht. exact (no_key_lget _ t EX (names t Ht)).
  Qed.

  Theorem db_lossless rows s :
    db_run acc hc fl cl ti rows = Ok s -> d_db s = expected_db ti rows.
  Proof.
    unfold db_run. intros H.
    destruct (db_writes acc hc fl cl ti (db_init ti) rows) as [s1|] eqn:E; [|discriminate].
    exact (Inv_close _ _ _ (db_writes_Inv _ _ E) H).
  Qed.

  Theorem db_every_row rows s : db_run acc hc fl cl ti rows = Ok s ->
    forall t r cols, In (t, r) rows -> In (t, cols) ti -> In (project cols r) (lget t (d_db s)).
  Proof.
    intros H t r cols Hr Hin. rewrite (db_lossless _ _ H), lget_expected, (aget_NoDup_In _ _ _ ND Hin).
    apply in_map, (in_map snd _ (t, r)), filter_In. split; [exact Hr|apply String.eqb_refl].
  Qed.

  Definition accepted (rows : list (string * row)) : Prop :=
    forall t cols r, In (t, cols) ti -> In r (rows_of t rows) -> acc (project cols r) = true.

  Lemma accepted_prefix a b : accepted (a ++ b) -> accepted a.
  Proof.
    intros H t cols r Hin Hr. apply (H t cols r Hin). rewrite rows_of_app. apply in_or_app. auto.
  Qed.

  (* every buffered row is one of the rows written, so a flush (if any) succeeds *)
  Lemma flush_ok done b s : Inv done (d_buf s) (d_db s) -> accepted done ->
    exists s', flush_if b s = Ok s' /\ Inv done (d_buf s') (d_db s').
  Proof.
    intros I HA. destruct b; [|exists s; auto]. unfold flush_if, db_flush.
    destruct (flush_tables_ok acc ti (d_buf s) (d_db s)) as [[b d] E].
    - intros t cols Ht%aget_Some_In. apply forallb_forall. intros x Hx.
      assert (Hx' : In x (map (project cols) (rows_of t done))).
      { rewrite <- (proj2 I t cols Ht). apply in_or_app. auto. }
      apply in_map_iff in Hx'. destruct Hx' as (r & <- & Hr). exact (HA t cols r Ht Hr).
    - rewrite E. eexists. split; [reflexivity|]. apply (Inv_flush _ _ _ _ _ I E).
  Qed.

  Hypothesis fl_pos : 0 < fl.
  Hypothesis cl_pos : 0 < cl.

  Lemma write_ok done s t r : Inv done (d_buf s) (d_db s) -> accepted (done ++ [(t, r)]) ->
    exists s', db_write acc hc fl cl ti s t r = Ok s'.
  Proof.
    intros I HA. apply (Inv_push _ _ _ t r) in I. rewrite db_write_eq.
    replace (fl =? 0) with false by lia. replace (cl =? 0) with false by lia. cbn [orb].
    destruct (flush_ok _ (d_count s mod fl =? 0) (mkDb (d_count s) _ _) I HA) as (s2 & -> & I2). cbn [bind].
    destruct (flush_ok _ ((d_count s2 mod cl =? 0) && hc && has_key (d_buf s2)) _ I2 HA) as (s3 & -> & _).
    eexists. reflexivity.
  Qed.

  Lemma writes_ok rest : forall done s, Inv done (d_buf s) (d_db s) -> accepted (done ++ rest) ->
    exists s', db_writes acc hc fl cl ti s rest = Ok s'.
  Proof.
    induction rest as [|[t r] rest IH]; intros done s I HA; cbn [db_writes]; [eauto|].
    change (done ++ (t, r) :: rest) with (done ++ [(t, r)] ++ rest) in HA. rewrite app_assoc in HA.
    destruct (write_ok _ _ t r I (accepted_prefix _ _ HA)) as (s1 & E). rewrite E.
    exact (IH _ _ (Inv_write _ _ _ _ _ I E) HA).
  Qed.

  Theorem db_run_ok rows : accepted rows -> exists s, db_run acc hc fl cl ti rows = Ok s.
  Proof.
    intros HA. unfold db_run.
    destruct (writes_ok rows [] (db_init ti) Inv_init HA) as (s1 & E). rewrite E. cbn [bind].
    destruct (flush_ok _ (has_key (d_buf s1)) s1 (db_writes_Inv _ _ E) HA) as (s & H & _).
    exists s. exact H.
  Qed.

  Hypothesis fl_divides_cl : (fl | cl).

  (* after the rows [done] a second connection sees the first fl * (n / fl) of them *)
  Definition Vis (done : list (string * row)) (s : dbst) : Prop :=
    d_count s = Z.of_nat (length done) + 1 /\
    d_db s = expected_db ti (firstn (Z.to_nat (fl * (Z.of_nat (length done) / fl))) done) /\
    (forall t cols, In (t, cols) ti ->
       lget t (d_db s) ++ map (project cols) (lget t (d_buf s)) = map (project cols) (rows_of t done)).

  Lemma Vis_init : Vis [] (db_init ti).
  Proof. split; [reflexivity|]. split; [rewrite firstn_nil; reflexivity|apply Inv_init]. Qed.

  Lemma Vis_write done s t r s' :
    Vis done s -> db_write acc hc fl cl ti s t r = Ok s' -> Vis (done ++ [(t, r)]) s'.
  Proof.
    intros (C & D & HE) H. unfold Vis. rewrite app_length, Nat2Z.inj_add. cbn [length Z.of_nat Pos.of_succ_nat].
    set (n := Z.of_nat (length done)) in *.
    assert (I : Inv (done ++ [(t, r)]) (push t r (d_buf s)) (d_db s))
      by (apply Inv_push; split; [rewrite D; apply map_map|exact HE]).
    apply (db_write_flushes _ _ _ _ _ _ (Inv_flush (done ++ [(t, r)]))) in H; [|intros buf db Q; apply Q|exact I].
    destruct H as (C' & [_ HE'] & Q & U). split; [lia|]. split; [|exact HE']. rewrite C in *.
    destruct (Z.eq_dec ((n + 1) mod fl) 0) as [B|B].
    - (* a flush boundary: everything written so far is visible *)
      rewrite (proj2 (Q B)). f_equal.
      rewrite <- (Z_div_exact_full_2 (n + 1) fl) by (exact B || lia).
      symmetry. apply firstn_all2. rewrite app_length. cbn [length]. lia.
    - (* not a boundary, hence no commit either: the database does not change *)
      destruct U as [_ ->]; [exact B|intros B'%Z.mod_divide; [|lia]|].
      { apply B, Z.mod_divide; [lia|]. exact (Z.divide_trans _ _ _ fl_divides_cl B'). }
      rewrite D. f_equal.
      replace ((n + 1) / fl) with (n / fl) by (clear - fl_pos B; Z.div_mod_to_equations; nia).
      rewrite firstn_app. replace (_ - length done)%nat with 0%nat; [symmetry; apply app_nil_r|].
      pose proof (Z.mul_div_le n fl fl_pos). lia.
  Qed.

  Theorem db_visible_prefix rows s : db_writes acc hc fl cl ti (db_init ti) rows = Ok s -> Vis rows s.
  Proof. exact (db_writes_ind Vis Vis_write rows [] _ _ Vis_init). Qed.

  Theorem db_counts rows :
    (forall tr, In tr rows -> In (fst tr) (map fst ti)) -> accepted rows ->
    (exists s, db_writes acc hc fl cl ti (db_init ti) rows = Ok s /\
               total (d_db s) = fl * (Z.of_nat (length rows) / fl) /\
               total (d_buf s) = Z.of_nat (length rows) mod fl) /\
    (exists s, db_run acc hc fl cl ti rows = Ok s /\ total (d_db s) = Z.of_nat (length rows)).
  Proof.
    intros HK HA. split.
    - destruct (writes_ok rows [] _ Inv_init HA) as (s & E). exists s. split; [exact E|].
      set (n := Z.of_nat (length rows)).
      assert (T : total (d_db s) + total (d_buf s) = n).
      { apply (db_writes_ind (fun done s => total (d_db s) + total (d_buf s) = Z.of_nat (length done))) with (done := []) in E.
        - exact E.
        - intros done s0 t r s1 T H. rewrite (db_write_total _ _ _ _ H), T, app_length, Nat2Z.inj_add. reflexivity.
        - change (total (expected_db ti []) + 0 = 0). rewrite total_expected; [reflexivity|exact ND|easy]. }
      destruct (db_visible_prefix _ _ E) as (_ & D & _).
      pose proof (Z.mul_div_le n fl fl_pos).
      assert (0 <= fl * (n / fl)) by (apply Z.mul_nonneg_nonneg; [|apply Z.div_pos]; lia).
      assert (V : total (d_db s) = fl * (n / fl)).
      { rewrite D, total_expected, firstn_length; [fold n; lia|exact ND|].
        intros tr Hin. apply HK. rewrite <- (firstn_skipn (Z.to_nat (fl * (n / fl))) rows).
        apply in_or_app. left. exact Hin. }
      split; [exact V|]. rewrite Z.mod_eq; lia.
    - destruct (db_run_ok rows HA) as (s & E). exists s. split; [exact E|].
      rewrite (db_lossless _ _ E). apply total_expected; assumption.
  Qed.
End Machine.

Lemma synth_tables_keys k : map fst (synth_tables k) = map synth_table (Zseq 0 (Z.to_nat k)).
Proof. unfold synth_tables. rewrite map_map. reflexivity. Qed.

Lemma synth_tables_NoDup k : k <= 4 -> NoDup (map fst (synth_tables k)).
Proof.
  intros H. rewrite synth_tables_keys.
  assert (C : (Z.to_nat k <= 4)%nat) by lia. clear H.
  repeat (apply Nat.le_succ_r in C; destruct C as [C| ->]).
  all: try (apply Nat.le_0_r in C; rewrite C).
  all: cbn; repeat constructor; cbn; intuition discriminate.
Qed.

Lemma synth_table_named j : synth_table j <> ""%string.
Proof. destruct j as [|[[]|[]|]|]; discriminate. Qed.

Lemma synth_rows_spec k n tr : In tr (synth_rows k n) <-> exists i, 0 <= i < n /\ tr = synth_row k i.
Proof.
  unfold synth_rows. rewrite in_map_iff. split; intros (i & H1 & H2); exists i.
  - apply Zseq_In in H2. split; [lia|auto].
  - split; [auto|]. apply Zseq_In. lia.
Qed.

Lemma synth_rows_known k n tr : 0 < k -> In tr (synth_rows k n) -> In (fst tr) (map fst (synth_tables k)).
Proof.
  intros K (i & Hi & ->)%synth_rows_spec. rewrite synth_tables_keys. apply (in_map synth_table _ (i mod k)), Zseq_In.
  pose proof (Z.mod_pos_bound i k K). lia.
Qed.

Lemma int_accepted f is_id z : f = FDb \/ f = FSql -> - 2 ^ 63 <= z < 2 ^ 63 ->
  is_ok (render f is_id (VInt z)) = true.
Proof.
  intros Hf Hz. assert (I : int64 z = true) by (unfold int64; lia).
  destruct Hf as [-> | ->]; cbn [render]; rewrite I; reflexivity.
Qed.

Lemma synth_rows_accepted f k n : f = FDb \/ f = FSql -> 0 < k -> n < 2 ^ 63 ->
  accepted (sqlite_accepts f) (synth_tables k) (synth_rows k n).
Proof.
  intros Hf K N t cols r (j & E & _)%in_map_iff Hr. injection E as <- <-.
  apply in_map_iff in Hr. destruct Hr as (tr & <- & (Hr & _)%filter_In).
  apply synth_rows_spec in Hr. destruct Hr as (i & Hi & ->).
  assert (0 <= i / k <= i) by (split; [apply Z.div_pos; lia|apply Z.div_le_upper_bound; nia]).
  assert (Y : forall y, y = VNull \/ y = VStr [121] ->
          sqlite_accepts f [("x"%string, VInt i); ("y"%string, y); ("id"%string, VInt (i / k + 1))] = true).
  { intros y Hy. cbn [sqlite_accepts forallb fst snd]. rewrite !int_accepted by (assumption || lia).
    destruct Hy as [-> | ->], Hf as [-> | ->]; reflexivity. }
  unfold synth_row. cbn [snd]. destruct (i mod 3 =? 0), (i mod 2 =? 0); apply Y; auto.
Qed.

(* db_counts for the rows the CBuffer cases drive the real stream with *)
Theorem synth_counts f hc fl cl k n :
  f = FDb \/ f = FSql -> 0 < fl -> 0 < cl -> (fl | cl) -> 0 < k <= 4 -> 0 <= n < 2 ^ 63 ->
  (exists s, db_writes (sqlite_accepts f) hc fl cl (synth_tables k) (db_init (synth_tables k)) (synth_rows k n) = Ok s /\
             total (d_db s) = fl * (n / fl) /\ total (d_buf s) = n mod fl) /\
  (exists s, db_run (sqlite_accepts f) hc fl cl (synth_tables k) (synth_rows k n) = Ok s /\ total (d_db s) = n).
Proof.
  intros Hf F C D K N.
  assert (L : Z.of_nat (length (synth_rows k n)) = n).
  { unfold synth_rows. rewrite map_length, Zseq_length. lia. }
  pose proof (fun ND NM => db_counts (sqlite_accepts f) hc fl cl (synth_tables k) ND NM F C D (synth_rows k n)) as H.
  rewrite L in H. apply H.
  - apply synth_tables_NoDup. lia.
  - rewrite synth_tables_keys. intros t (j & <- & _)%in_map_iff. apply synth_table_named.
  - intros tr. apply synth_rows_known. lia.
  - apply synth_rows_accepted; [exact Hf|lia..].
Qed.

Lemma mem_In k l : mem k l = true <-> In k l.
Proof.
  unfold mem. rewrite existsb_exists. split.
  - intros (x & Hx & <-%String.eqb_eq). exact Hx.
  - intros H. exists k. split; [exact H|apply String.eqb_refl].
Qed.

Lemma add_fields_In l : forall acc f, In f (fold_left add_field l acc) <-> In f acc \/ In f l.
Proof.
  induction l as [|x l IH]; intros acc f; cbn [fold_left In]; [tauto|].
  rewrite IH. unfold add_field. destruct (mem x acc) eqn:E.
  - apply mem_In in E. split; [tauto|]. intros [H|[->|H]]; auto.
  - rewrite in_app_iff. cbn [In]. tauto.
Qed.

Definition extends (a b : tinfo) : Prop :=
  incl (ti_fields a) (ti_fields b) /\ (ti_upd a = true -> ti_upd b = true).

Lemma extends_trans a b c : extends a b -> extends b c -> extends a c.
Proof. intros [H1 H2] [H3 H4]. split; [exact (incl_tran H1 H3)|auto]. Qed.

(* what one template alone asks of its table *)
Definition own (t : template) : tinfo :=
  mkTI (filter (fun f => negb (hidden f)) (t_fields t)) (t_upd t).

Lemma register_extends ti t : extends ti (register ti t) /\ extends (own t) (register ti t).
Proof.
  unfold extends, register, own. cbn [ti_fields ti_upd].
  split; (split; [intros f Hf; apply add_fields_In; auto|intros ->; auto using orb_true_r]).
Qed.

Lemma registered tpls acc t : In t tpls ->
  exists ti, aget (t_table t) (fold_left register_template tpls acc) = Some ti /\ extends (own t) ti.
Proof.
  induction tpls as [|t0 tpls IH] using rev_ind; [intros []|].
  rewrite fold_left_app. cbn [fold_left]. set (before := fold_left register_template tpls acc) in *.
  unfold register_template. set (ti0 := match aget (t_table t0) before with Some ti => ti | None => _ end).
  rewrite aget_aset. intros [Hin|[->|[]]]%in_app_or.
  - destruct (IH Hin) as (ti & H1 & H2). destruct (String.eqb_spec (t_table t0) (t_table t)) as [E|]; [|eauto].
    exists (register ti0 t0). split; [reflexivity|]. unfold ti0. rewrite E, H1.
    exact (extends_trans _ _ _ H2 (proj1 (register_extends ti t0))).
  - rewrite String.eqb_refl. exists (register ti0 t). split; [reflexivity|apply register_extends].
Qed.

Lemma aget_filter_key {A} (p : string -> bool) k (l : list (string * A)) :
  p k = true -> aget k (filter (fun nt => p (fst nt)) l) = aget k l.
Proof.
  intros Hp. induction l as [|[k0 v] l IH]; cbn [filter aget fst]; [reflexivity|].
  destruct (String.eqb_spec k0 k) as [->|N].
  - rewrite Hp. cbn [aget]. rewrite String.eqb_refl. reflexivity.
  - destruct (p k0); [cbn [aget]; apply String.eqb_neq in N; rewrite N|]; exact IH.
Qed.

Lemma fallback_In ti k :
  In k (ti_fields ti) \/ k = "id"%string \/ (ti_upd ti = true /\ k = upd_key) -> In k (fallback ti).
Proof.
  change (fallback ti) with (let f1 := fold_left add_field ["id"%string] (ti_fields ti) in
                             if ti_upd ti then fold_left add_field [upd_key] f1 else f1).
  cbv zeta. intros H. destruct (ti_upd ti); rewrite !add_fields_In; cbn [In]; destruct H as [H|[->|[U ->]]]; auto. discriminate.
Qed.

Lemma csv_header_In ti k :
  In k (ti_fields ti) \/ k = "id"%string \/ (ti_upd ti = true /\ k = upd_key) -> In k (csv_header ti).
Proof.
  intros H. unfold csv_header. apply in_or_app. cbn [app In]. destruct H as [H|[->|[-> ->]]]; cbn [In]; auto.
Qed.

Theorem keys_in_schema tpls t :
  In t tpls -> hidden (t_table t) = false ->
  exists ti, aget (t_table t) (infer tpls) = Some ti /\
             forall k, In k (row_keys t) -> In k (fallback ti) /\ In k (csv_header ti).
Proof.
  intros Hin Hh. destruct (registered tpls [] t Hin) as (ti & H1 & C1 & C2). cbn [own ti_fields ti_upd] in C1, C2.
  exists ti. split.
  - unfold infer. rewrite (aget_filter_key (fun n => negb (hidden n))); [exact H1|]. rewrite Hh. reflexivity.
  - intros k Hk.
    assert (In k (ti_fields ti) \/ k = "id"%string \/ (ti_upd ti = true /\ k = upd_key)).
    { destruct Hk as [<-|Hk]; [auto|]. apply in_app_or in Hk. destruct Hk as [Hk|Hk]; [|auto].
      destruct (t_upd t); [|destruct Hk]. destruct Hk as [<-|[]]. auto. }
    split; [apply fallback_In|apply csv_header_In]; assumption.
Qed.

Lemma project_keeps cols (r : row) k v :
  In k cols -> aget k r = Some v -> aget k (project cols r) = Some v.
Proof.
  intros Hin Hv. unfold project. induction cols as [|c cols IH]; [destruct Hin|].
  cbn [map aget]. destruct (String.eqb_spec c k) as [->|N]; [rewrite Hv; reflexivity|].
  destruct Hin as [->|Hin]; [easy|exact (IH Hin)].
Qed.

Theorem generated_row_fits tpls t (r : row) :
  In t tpls -> hidden (t_table t) = false -> incl (map fst r) (row_keys t) ->
  exists ti, aget (t_table t) (infer tpls) = Some ti /\
    (forall k v, aget k r = Some v -> aget k (project (fallback ti) r) = Some v) /\
    forallb (fun kv => mem (fst kv) (csv_header ti)) r = true.
Proof.
  intros Hin Hh Hk. destruct (keys_in_schema tpls t Hin Hh) as (ti & H1 & H2).
  exists ti. split; [exact H1|]. split.
  - intros k v Hv. apply project_keeps; [|exact Hv].
    apply H2, Hk. exact (in_map fst _ _ (aget_Some_In _ _ _ Hv)).
  - apply forallb_forall. intros kv Hkv. apply mem_In, H2, Hk, in_map, Hkv.
Qed.

Section MuxP.
  Context {S R : Type}.
  Variable write : S -> R -> result S.

  Lemma run_one_ind (P : list R -> S -> Prop) :
    (forall done s r s', P done s -> write s r = Ok s' -> P (done ++ [r]) s') ->
    forall rows done s s', P done s -> run_one write s rows = Ok s' -> P (done ++ rows) s'.
  Proof.
    intros step. induction rows as [|r rows IH]; intros done s s' H0 H; cbn [run_one] in H.
    - injection H as <-. rewrite app_nil_r. exact H0.
    - destruct (write s r) as [s1|] eqn:E; [|discriminate].
      change (?a ++ ?x :: ?b) with (a ++ [x] ++ b). rewrite app_assoc. exact (IH _ _ _ (step _ _ _ _ H0 E) H).
  Qed.

  Lemma mux_write_each ss r ss1 :
    mux_write write ss r = Ok ss1 <-> Forall2 (fun s s1 => write s r = Ok s1) ss ss1.
  Proof.
    revert ss1. induction ss as [|s ss IH]; intros ss1; cbn [mux_write].
    - split; [intros [= <-]; constructor|intros H; inversion H; reflexivity].
    - split.
      + destruct (write s r) as [s1|] eqn:E; [|discriminate].
        destruct (mux_write write ss r) as [rest|]; [|discriminate].
        intros [= <-]. constructor; [exact E|apply IH; reflexivity].
      + intros H. inversion H as [|? s1 ? rest E H']; subst. rewrite E. apply IH in H'. rewrite H'. reflexivity.
  Qed.

  Theorem mux_run_each rows : forall ss ss',
    mux_run write ss rows = Ok ss' <-> Forall2 (fun s s' => run_one write s rows = Ok s') ss ss'.
  Proof.
    induction rows as [|r rows IH]; intros ss ss'; cbn [mux_run].
    - split.
      + intros [= <-]. induction ss; constructor; auto.
      + intros H. f_equal. induction H as [|s s' ss ss' [= ->] H IHH]; congruence.
    - split.
      + destruct (mux_write write ss r) as [ss1|] eqn:E; [|discriminate]. cbn [bind].
        intros H. apply mux_write_each in E. apply IH in H. clear IH.
        revert ss' H. induction E as [|s s1 ss ss1 Hw E IHE]; intros ss' H; inversion H; subst; constructor; auto.
        cbn [run_one]. rewrite Hw. assumption.
      + intros H.
        assert (exists ss1, Forall2 (fun s s1 => write s r = Ok s1) ss ss1 /\
                            Forall2 (fun s1 s' => run_one write s1 rows = Ok s') ss1 ss') as (ss1 & H1 & H2).
        { induction H as [|s s' ss ss' Hr H (ss1 & H1 & H2)]; [exists []; split; constructor|].
          cbn [run_one] in Hr. destruct (write s r) as [s1|] eqn:E; [|discriminate].
          exists (s1 :: ss1). split; constructor; assumption. }
        apply mux_write_each in H1. rewrite H1. apply IH, H2.
  Qed.
End MuxP.

Lemma et_app a b : encodable_text (a ++ b) = encodable_text a && encodable_text b.
Proof. apply forallb_app. Qed.

Lemma et_uint u : encodable_text (uint_text u) = true.
Proof. unfold encodable_text. induction u; cbn [uint_text forallb]; rewrite ?IHu; reflexivity. Qed.

Lemma et_dec z : encodable_text (dec_text z) = true.
Proof.
  unfold dec_text. destruct (Z.to_int z) as [u|u]; [apply et_uint|].
  change (encodable_text ([45] ++ uint_text u) = true). rewrite et_app, et_uint. reflexivity.
Qed.

Lemma et_pad n z : encodable_text (pad n z) = true.
Proof.
  unfold pad, pad_to. rewrite et_app, et_dec, andb_true_r.
  induction (n - length (dec_text z))%nat as [|k IH]; [reflexivity|exact IH].
Qed.

Lemma et_string s : encodable_text (text_of_string s) = true.
Proof.
  unfold encodable_text. induction s as [|a s IH]; cbn [text_of_string forallb]; [reflexivity|].
  rewrite IH, andb_true_r. unfold is_surrogate.
  pose proof (Ascii.N_ascii_bounded a). replace (55296 <=? Z.of_N (N_of_ascii a)) with false by lia. reflexivity.
Qed.

Lemma et_offset off : encodable_text (iso_offset off) = true.
Proof.
  destruct off as [o|]; [|reflexivity]. unfold iso_offset.
  rewrite !et_app, !et_pad. destruct (o <? 0); reflexivity.
Qed.

Lemma et_fmt_dt y m d hh mi ss off : encodable_text (fmt_dt_seconds y m d hh mi ss off) = true.
Proof. unfold fmt_dt_seconds, iso_date, iso_time. rewrite !et_app, !et_pad, et_offset. reflexivity. Qed.

Lemma utf8_ok t : encodable_text t = true -> utf8_text t = Ok (CText t).
Proof. unfold utf8_text. intros ->. reflexivity. Qed.

Lemma render_sql_int f z : f = FDb \/ f = FSql -> exists c, render f false (sql_int z) = Ok c.
Proof.
  unfold sql_int. fold (int64 z). intros Hf.
  destruct (int64 z) eqn:E, Hf as [-> | ->]; cbn [render]; rewrite ?E, ?utf8_ok by apply et_dec; eauto.
Qed.

(* the values the property lists.  Excluded, because the database / the text file refuses them
   (finding K9 is about what happens then): for every format except JSON a string holding a
   lone surrogate.  Integers of any size are fine everywhere (sql_int). *)
Definition encodable (f : fmt) (v : value) : bool :=
  match v with
  | VOther => false
  | VStr s | VDec s => match f with FJson => true | _ => encodable_text s end
  | _ => true
  end.

Theorem encode_total f v : encodable f v = true -> exists c, encode f false v = Ok c.
Proof.
  intros H. unfold encode.
  destruct v; try discriminate H; destruct f; cbn [encodable] in H;
    cbn [cleanup flatten type_of encoders enc_get enc_set base_encoders vtype_eqb
         enc_int enc_noop enc_str enc_bool enc_format_datetime enc_sql_int py_str bind];
    auto using render_sql_int; cbn [render py_str bind];
    rewrite ?utf8_ok by (rewrite ?et_app, ?et_string, ?et_dec, ?et_fmt_dt; auto);
    try destruct b; eexists; reflexivity.
Qed.

Record env_ok (e : env) : Prop := {
  eo_nodup : NoDup (map fst (e_tables e));
  eo_names : forall t, In t (map fst (e_tables e)) -> t <> ""%string;
  eo_fl : 0 < e_fl e;
  eo_cl : 0 < e_cl e
}.

Lemma env_tables_keys e : map fst (env_tables e) = map fst (e_tables e).
Proof. apply map_map. Qed.

Definition initial (e : env) (s : sstate) : Prop :=
  (exists f, s = init_stream e f) \/ (exists fa fc, s = SStub [] fa fc false).

Lemma cleaned_app f a b ca cb :
  cleaned f a = Ok ca -> cleaned f b = Ok cb -> cleaned f (a ++ b) = Ok (ca ++ cb).
Proof.
  unfold cleaned. revert ca. induction a as [|x a IH]; intros ca Ha Hb; cbn [app map_result] in *.
  - injection Ha as <-. exact Hb.
  - destruct (cleanup_row f (snd x)) as [c|]; cbn [bind] in *; [|discriminate].
    destruct (map_result _ a) as [ys|]; cbn [bind] in *; [|discriminate].
    injection Ha as <-. rewrite (IH ys eq_refl Hb). reflexivity.
Qed.

(* What a stream holds after the rows [done]: [complete] without the closed flag, and for a
   database stream with the rows possibly still in the buffer. *)
Definition tracks (e : env) (done : list (string * row)) (s : sstate) : Prop :=
  match s with
  | SDb is_text st _ =>
    exists c, cleaned (db_fmt is_text) done = Ok c /\ Inv (env_tables e) c (d_buf st) (d_db st)
  | SFile f rs _ => cleaned f done = Ok rs
  | SStub log _ _ _ => log = done
  end.

Lemma tracks_init e s : env_ok e -> initial e s -> tracks e [] s.
Proof.
  intros EO [(f & ->)|(fa & fc & ->)]; [|reflexivity].
  destruct f; try reflexivity; exists []; split; try reflexivity; apply Inv_init; rewrite env_tables_keys; apply EO.
Qed.

Lemma tracks_write e done s tr s' : env_ok e ->
  tracks e done s -> s_write e s tr = Ok s' -> tracks e (done ++ [tr]) s'.
Proof.
  intros EO T H. destruct tr as [t raw].
  assert (C : forall f c, cleanup_row f raw = Ok c -> cleaned f [(t, raw)] = Ok [(t, c)]).
  { intros f c E. unfold cleaned. cbn [map_result snd fst]. rewrite E. reflexivity. }
  destruct s as [is_text st closed|f rs closed|log fa fc closed]; cbn [s_write tracks] in *.
  - destruct (cleanup_row _ raw) as [c|] eqn:EC; [|discriminate]. cbn [bind] in H.
    destruct (db_write _ _ _ _ _ st t c) as [st1|] eqn:EW; [|discriminate]. injection H as <-.
    destruct T as (cs & HC & I). exists (cs ++ [(t, c)]). split; [exact (cleaned_app _ _ _ _ _ HC (C _ _ EC))|].
    refine (Inv_write _ _ _ _ _ _ _ _ _ _ _ I EW). rewrite env_tables_keys. apply EO.
  - destruct (cleanup_row f raw) as [c|] eqn:EC; [|discriminate]. cbn [bind] in H.
    destruct (match f with FCsv => _ | _ => Ok tt end); [|discriminate].
    destruct (map_result _ c); [|discriminate]. injection H as <-. exact (cleaned_app _ _ _ _ _ T (C _ _ EC)).
  - destruct (_ =? fa); [discriminate|]. injection H as <-. rewrite T. reflexivity.
Qed.

Lemma tracks_close e rows s s' : env_ok e -> tracks e rows s -> s_close e s = Ok s' -> complete e rows s'.
Proof.
  intros EO T H. destruct s as [is_text st closed|f rs closed|log fa fc closed]; cbn [s_close tracks] in *.
  - destruct (db_close _ _ st) as [st1|] eqn:EC; [|discriminate]. injection H as <-.
    destruct T as (c & HC & I). split; [reflexivity|]. exists c. split; [exact HC|].
    refine (Inv_close _ _ _ _ _ _ _ I EC); rewrite env_tables_keys; apply EO.
  - injection H as <-. split; [reflexivity|exact T].
  - destruct fc; [discriminate|]. injection H as <-. split; [reflexivity|exact T].
Qed.

Lemma close_all_clean e ss : forall ss', close_all e ss = (ss', true) ->
  Forall2 (fun s s' => s_close e s = Ok s') ss ss'.
Proof.
  induction ss as [|s ss IH]; intros ss' H; cbn [close_all] in H.
  - injection H as <-. constructor.
  - destruct (s_close e s) as [s1|] eqn:E; [|discriminate].
    destruct (close_all e ss) as [r b]. injection H as <- ->. constructor; [exact E|apply IH; reflexivity].
Qed.

(* "a run that reports success has lost nothing", for runs whose close() raised nothing *)
Theorem success_means_lossless_partial e outs rows ss :
  env_ok e -> Forall (initial e) outs ->
  app_run e outs rows = Ok (ss, true) -> Forall (complete e rows) ss.
Proof.
  intros EO HI H. unfold app_run in H.
  destruct (mux_run (s_write e) outs rows) as [ss1|] eqn:E; [|discriminate].
  injection H as H. apply close_all_clean in H. apply mux_run_each in E.
  revert ss H. induction E as [|s0 s1 outs ss1 HR E IHE]; intros ss H; inversion H; subst; constructor.
  - inversion HI; subst. apply (tracks_close e rows s1); [exact EO| |assumption].
    apply (run_one_ind _ (tracks e) (fun done s r s' => tracks_write e done s r s' EO) rows [] s0); [|exact HR].
    apply tracks_init; assumption.
  - inversion HI. auto.
Qed.

(* when SQLite accepts every row, a database stream's close() raises nothing *)
Theorem db_close_clean e is_text rows crows :
  env_ok e -> cleaned (db_fmt is_text) rows = Ok crows ->
  accepted (sqlite_accepts (db_fmt is_text)) (env_tables e) crows ->
  exists s, db_run (sqlite_accepts (db_fmt is_text)) (negb is_text) (e_fl e) (e_cl e) (env_tables e) crows = Ok s.
Proof.
  intros EO _ HA. apply db_run_ok; try apply EO; [|exact HA].
  rewrite env_tables_keys. apply EO.
Qed.

(* the unrestricted statement is false: finding K9 *)
Definition k9_env : env := mkEnv (infer [mkT "A" ["big"%string] false]) 1000 10000.
Definition k9_rows : list (string * row) :=
  [("A"%string, [("id"%string, VInt 1); ("big"%string, VInt 5)]);
   ("A"%string, [("id"%string, VInt 2); ("big"%string, VStr [55296])]);
   ("A"%string, [("id"%string, VInt 3); ("big"%string, VInt 5)])].

Lemma k9_env_ok : env_ok k9_env.
Proof.
  constructor; cbn.
  - repeat constructor. intros [].
  - intros t [<-|[]]. discriminate.
  - lia.
  - lia.
Qed.

(* three rows, one holding the string "\ud800" (a lone surrogate), database output: the run
   reports success, the database is empty; with a JSON file and an SQL script next to it those
   are never closed *)
Theorem success_means_lossless_refuted :
  exists e rows st ss,
    env_ok e /\
    app_run e [init_stream e FDb] rows = Ok ([SDb false st false], false) /\
    total (d_db st) = 0 /\ length rows = 3%nat /\
    (forall crows, cleaned FDb rows = Ok crows -> d_db st <> expected_db (env_tables e) crows) /\
    app_run e (map (init_stream e) [FDb; FJson; FSql]) rows = Ok (ss, false) /\
    map summarise ss = [SumDb true [("A"%string, 0)]; SumFile false 3; SumDb false [("A"%string, 0)]].
Proof.
  exists k9_env, k9_rows.
  eexists. eexists. split; [exact k9_env_ok|].
  split; [vm_compute; reflexivity|].
  split; [vm_compute; reflexivity|].
  split; [reflexivity|].
  split.
  - intros crows H. vm_compute in H. injection H as <-. vm_compute. discriminate.
  - split; vm_compute; reflexivity.
Qed.
