(* C01 over the interpreter, by two invariants: [K] - per table the ids handed out are exactly
   1..last, each held in one place - and [bal] - every created row of a visible table is written
   exactly once.  Together: the ids written per table are exactly 1..n. *)
From Coq Require Import ZArith List Lia Bool Permutation ZifyBool.
From SFV Require Import Base Interp.
From SFV.P Require Import BaseP InterpP InterpHeapP.
Import ListNotations. Open Scope Z_scope.

Definition cell_ids (T : string) (h : list cell) : list Z :=
  map c_id (filter (fun c => String.eqb (c_table c) T) h).

Definition slot_res (T : string) (sl : slot) : list Z :=
  match s_alloc sl with
  | Some i => if negb (s_consumed sl) && String.eqb (s_table sl) T then [i] else []
  | None => []
  end.

Definition reserved (T : string) (sls : list (string * slot)) : list Z :=
  flat_map (fun p => slot_res T (snd p)) sls.

(* [write_row] puts the id first *)
Definition orow_id (r : orow) : list Z :=
  match snd r with (_, OInt i) :: _ => [i] | _ => [] end.

Definition written (T : string) (o : list orow) : list Z :=
  flat_map (fun r => if String.eqb (fst r) T then orow_id r else []) o.

Lemma cell_ids_snoc T h c :
  cell_ids T (h ++ [c]) = cell_ids T h ++ (if String.eqb (c_table c) T then [c_id c] else []).
Proof.
  unfold cell_ids. rewrite filter_app, map_app. cbn [filter].
  destruct (String.eqb (c_table c) T); reflexivity.
Qed.

Lemma cell_ids_set_nth T h : forall k i c c',
  nth_error h i = Some c -> c_table c' = c_table c -> c_id c' = c_id c ->
  cell_ids T (skipn k (set_nth i c' h)) = cell_ids T (skipn k h).
Proof.
  unfold cell_ids. induction h as [|x r IH]; intros k i c c' Hn Ht Hi; destruct i; cbn [nth_error] in Hn;
    try discriminate; cbn [set_nth].
  - injection Hn as ->. destruct k; cbn [skipn filter]; [|reflexivity].
    rewrite Ht. destruct (String.eqb (c_table c) T); cbn [map]; congruence.
  - destruct k; cbn [skipn filter]; [|eapply IH; eassumption].
    pose proof (IH 0%nat i c c' Hn Ht Hi) as H0. cbn [skipn] in H0.
    destruct (String.eqb (c_table x) T); cbn [map]; rewrite H0; reflexivity.
Qed.

(* overwriting slot [name]: what it reserved is exchanged for what the new slot reserves *)
Lemma reserved_assign T name sl sl' sls :
  lookup name sls = Some sl ->
  Permutation (slot_res T sl ++ reserved T (assign name sl' sls)) (slot_res T sl' ++ reserved T sls).
Proof.
  unfold reserved. induction sls as [|[k v] r IH]; cbn [lookup assign]; [discriminate|].
  destruct (String.eqb name k); cbn [flat_map snd].
  - intros H. injection H as ->. apply Permutation_app_swap_app.
  - intros H. eapply Permutation_trans; [apply Permutation_app_swap_app|].
    eapply Permutation_trans; [exact (Permutation_app_head _ (IH H))|apply Permutation_app_swap_app].
Qed.

Lemma slots_filled_reserved s T : slots_filled s = true -> reserved T (slots s) = [].
Proof.
  unfold slots_filled, reserved. induction (slots s) as [|[n sl] r IH]; cbn [forallb flat_map snd]; [reflexivity|].
  intros H. apply andb_true_iff in H. destruct H as [H1 H2]. rewrite (IH H2), app_nil_r.
  unfold slot_res. destruct (s_alloc sl); [|reflexivity]. rewrite H1. reflexivity.
Qed.

Lemma fresh_slots_reserved e T : reserved T (fresh_slots e) = [].
Proof.
  unfold fresh_slots, reserved. induction (name_slots e) as [|[n t] r IH]; cbn [map flat_map snd]; [reflexivity|].
  exact IH.
Qed.

Lemma written_rev T l : Permutation (written T (rev l)) (written T l).
Proof.
  unfold written. induction l as [|x r IH]; cbn [rev flat_map]; [constructor|].
  rewrite flat_map_app. cbn [flat_map]. rewrite app_nil_r.
  eapply Permutation_trans; [apply Permutation_app_comm|]. apply Permutation_app_head. exact IH.
Qed.

Lemma last_id_generate s t T :
  last_id (fst (generate_id s t)) T = if String.eqb T t then last_id s t + 1 else last_id s T.
Proof.
  unfold generate_id, last_id. cbn [fst ids upd_ids].
  destruct (String.eqb_spec T t) as [->|Hne].
  - rewrite lookup_assign_same. reflexivity.
  - rewrite lookup_assign_other by exact Hne. reflexivity.
Qed.

Section WithMissing.
(* ids issued by earlier runs whose rows are not in this run's heap (empty for a fresh run) *)
Variable miss : string -> list Z.
(* number of heap cells that were loaded from a continuation file (0 for a fresh run):
   only the cells created by THIS run are counted *)
Variable n0 : nat.

Definition nh (s : st) : list cell := skipn n0 (heap s).

Lemma nh_eq s s' : heap s' = heap s -> nh s' = nh s.
Proof. unfold nh. intros ->. reflexivity. Qed.

Lemma nh_snoc s c : (n0 <= length (heap s))%nat -> skipn n0 (heap s ++ [c]) = nh s ++ [c].
Proof.
  intros H. unfold nh. rewrite skipn_app.
  replace (n0 - length (heap s))%nat with 0%nat by lia. reflexivity.
Qed.

Definition slot_ok (p : string * slot) : Prop :=
  s_alloc (snd p) = None -> s_consumed (snd p) = false.

(* Every id issued for a table is in exactly one place: with an earlier run, reserved by a slot, or
   in a cell this run created. *)
Definition K (s : st) : Prop :=
  (Forall slot_ok (slots s) /\ (n0 <= length (heap s))%nat) /\
  forall T, Permutation (miss T ++ reserved T (slots s) ++ cell_ids T (nh s))
                        (Zseq 1 (Z.to_nat (last_id s T))) /\ 0 <= last_id s T.

(* reading a forward reference: the new id is the next of the slot's table, and it is reserved, since
   an unallocated slot is unconsumed *)
Lemma touch_slot_K s n s' i : touch_slot s n = Ok (s', i) -> K s -> K s'.
Proof.
  unfold touch_slot. destruct (lookup n (slots s)) as [sl|] eqn:Hl; [|discriminate].
  destruct (s_alloc sl) eqn:Ha; intros H; injection H as <- _; [auto|].
  intros [[Hwf Hlen] HK].
  assert (Hnc : s_consumed sl = false).
  { destruct (lookup_In Hl) as (k' & Hin). rewrite Forall_forall in Hwf. exact (Hwf _ Hin Ha). }
  split; [split; [apply Forall_assign; [exact Hwf|discriminate]|exact Hlen]|].
  intros T. destruct (HK T) as [HP Hnn].
  pose proof (reserved_assign T n sl (mkSlot (s_table sl) (Some (last_id s (s_table sl) + 1)) (s_consumed sl))
                _ Hl) as HR.
  unfold slot_res in HR. rewrite Ha in HR. cbn [s_alloc s_consumed s_table app] in HR.
  cbn [generate_id upd_slots upd_ids slots]. unfold nh. cbn [heap]. rewrite Hnc in HR |- *.
  change (last_id _ T) with (last_id (fst (generate_id s (s_table sl))) T).
  rewrite last_id_generate, (String.eqb_sym T (s_table sl)).
  destruct (String.eqb_spec (s_table sl) T) as [<-|_]; cbn [negb andb app] in HR.
  - split; [|lia]. rewrite Zseq_snoc by lia.
    eapply Permutation_trans; [apply Permutation_app_head, Permutation_app_tail, HR|].
    eapply Permutation_trans; [|apply Permutation_cons_append].
    apply Permutation_sym, Permutation_cons_app, Permutation_sym, HP.
  - split; [|exact Hnn]. eapply Permutation_trans; [apply Permutation_app_head, Permutation_app_tail, HR|exact HP].
Qed.

Lemma touches_K s s' : touches s s' -> K s -> K s'.
Proof. induction 1; eauto using touch_slot_K. Qed.

Definition dl (T : string) (s s' : st) (dw dc : list Z) : Prop :=
  Permutation (written T (out s')) (dw ++ written T (out s)) /\
  Permutation (cell_ids T (nh s')) (cell_ids T (nh s) ++ dc).

(* balanced: what was written equals what was created *)
Definition bal (s s' : st) : Prop :=
  forall T, hidden T = false -> exists dw dc, dl T s s' dw dc /\ Permutation dw dc.

Lemma bal_quiet s s' :
  out s' = out s -> (forall U, cell_ids U (nh s') = cell_ids U (nh s)) -> bal s s'.
Proof.
  intros Ho Hc T _. exists [], []. unfold dl. rewrite Ho, Hc, app_nil_r. repeat split; apply Permutation_refl.
Qed.

Lemma bal_refl s : bal s s.
Proof. apply bal_quiet; reflexivity. Qed.

Lemma bal_trans s1 s2 s3 : bal s1 s2 -> bal s2 s3 -> bal s1 s3.
Proof.
  intros H1 H2 T HT. destruct (H1 T HT) as (a & b & [Hw1 Hc1] & Hp1). destruct (H2 T HT) as (c & d & [Hw2 Hc2] & Hp2).
  exists (c ++ a), (b ++ d). split; [split|].
  - rewrite Hw2, Hw1, app_assoc. reflexivity.
  - rewrite Hc2, Hc1, app_assoc. reflexivity.
  - rewrite Hp1, Hp2. apply Permutation_app_comm.
Qed.

(* The ids [x T] are created first and written last, and what happens in between is balanced:
   a row of table T is created, its fields are computed, then it is written. *)
Lemma bal_bracket (x : string -> list Z) s a b s' :
  out a = out s -> (forall T, cell_ids T (nh a) = cell_ids T (nh s) ++ x T) ->
  bal a b ->
  (forall T, hidden T = false -> written T (out s') = x T ++ written T (out b)) ->
  (forall T, cell_ids T (nh s') = cell_ids T (nh b)) ->
  bal s s'.
Proof.
  intros Ho Hc B Hw Hc' T HT. destruct (B T HT) as (dw & dc & [Hw1 Hc1] & Hp).
  exists (x T ++ dw), (x T ++ dc). split; [split|].
  - rewrite (Hw T HT), Hw1, Ho, app_assoc. reflexivity.
  - rewrite Hc', Hc1, Hc, app_assoc. reflexivity.
  - rewrite Hp. reflexivity.
Qed.

Definition Kbal (s s' : st) : Prop := K s -> K s' /\ bal s s'.

Lemma Kbal_refl s : Kbal s s.
Proof. intros HK. split; [exact HK|apply bal_refl]. Qed.

Lemma Kbal_trans a b c : Kbal a b -> Kbal b c -> Kbal a c.
Proof.
  intros H1 H2 HK. destruct (H1 HK) as [K1 B1]. destruct (H2 K1) as [K2 B2].
  split; [exact K2|eapply bal_trans; eassumption].
Qed.

Lemma Kbal_core s s' :
  ids s' = ids s -> slots s' = slots s -> length (heap s') = length (heap s) ->
  (forall T, cell_ids T (nh s') = cell_ids T (nh s)) -> out s' = out s -> Kbal s s'.
Proof.
  intros Hi Hs Hl Hc Ho [[Hwf Hlen] HK]. split; [|apply bal_quiet; assumption].
  split; [split; [rewrite Hs; exact Hwf|rewrite Hl; exact Hlen]|].
  intros T. unfold last_id. rewrite Hi, Hs, Hc. apply HK.
Qed.

Lemma Kbal_same s s' : ids s' = ids s -> slots s' = slots s -> heap s' = heap s -> out s' = out s -> Kbal s s'.
Proof. intros a b c. apply Kbal_core; unfold nh; rewrite ?c; auto. Qed.

Lemma Kbal_set_field s h n v : Kbal s (set_field s h n v).
Proof.
  apply Kbal_core; try (rewrite set_field_only; reflexivity);
    unfold set_field, nh; destruct (nth_error (heap s) h) as [c|] eqn:E; try reflexivity; cbn [heap upd_heap].
  - apply set_nth_length.
  - intros T. eapply cell_ids_set_nth; eauto.
Qed.

Lemma Kbal_touches s s' : touches s s' -> Kbal s s'.
Proof.
  intros H HK. split; [eapply touches_K; eassumption|].
  apply bal_quiet; [apply touches_out, H|]. intros U. rewrite (nh_eq _ _ (touches_heap H)). reflexivity.
Qed.

Lemma Kbal_rnd s s' : rnd_only s s' -> Kbal s s'.
Proof. intros [x ->]. apply Kbal_same; reflexivity. Qed.

(* the reserved id moves from the slot to the heap *)
Lemma K_consume s n T s' i idx fs :
  consume_for s n T = Some (s', i) -> K s -> K (upd_heap s' (heap s ++ [mkCell T i idx fs])).
Proof.
  intros Hc [[Hwf Hlen] HK]. destruct (consume_for_spec Hc) as (sl & Hl & Ha & Hnc & <- & ->).
  split.
  - cbn [slots heap upd_heap upd_slots]. split; [apply Forall_assign; [exact Hwf|discriminate]|].
    rewrite app_length. lia.
  - intros U. destruct (HK U) as [HP Hnn]. split; [|exact Hnn].
    pose proof (reserved_assign U n sl (mkSlot (s_table sl) (Some i) true) _ Hl) as HR.
    unfold slot_res in HR. rewrite Ha, Hnc in HR. cbn [s_alloc s_consumed negb andb app] in HR.
    unfold nh at 1. cbn [slots heap upd_heap upd_slots]. rewrite (nh_snoc s _ Hlen), cell_ids_snoc.
    cbn [c_table c_id]. change (last_id _ U) with (last_id s U).
    rewrite <- HP, <- HR, <- !app_assoc. apply Permutation_app_head.
    rewrite app_assoc. apply Permutation_app_comm.
Qed.

Lemma K_generate s T s1 id idx fs :
  generate_id s T = (s1, id) -> K s -> K (upd_heap s1 (heap s ++ [mkCell T id idx fs])).
Proof.
  intros Hg [[Hwf Hlen] HK]. injection Hg as <- <-. split.
  { split; [exact Hwf|]. cbn [heap upd_heap]. rewrite app_length. lia. }
  intros U. destruct (HK U) as [HP Hnn].
  change (last_id _ U) with (last_id (fst (generate_id s T)) U).
  rewrite last_id_generate. unfold nh at 1. cbn [slots heap upd_heap upd_ids].
  rewrite (nh_snoc s _ Hlen), cell_ids_snoc. cbn [c_table c_id]. rewrite (String.eqb_sym T U).
  destruct (String.eqb_spec U T) as [->|_]; [|rewrite app_nil_r; split; assumption].
  split; [|lia]. rewrite Zseq_snoc, <- HP, <- !app_assoc by lia. reflexivity.
Qed.

Lemma new_row_K {s T nick} once i {s1 id} :
  new_row_id s T nick = (s1, id) -> K s ->
  let s3 := new_row s1 T nick once id i in
  K s3 /\ out s3 = out s /\
  forall U, cell_ids U (nh s3) = cell_ids U (nh s) ++ (if String.eqb T U then [id] else []).
Proof.
  intros H HK s3. unfold s3. rewrite new_row_only.
  pose proof (new_row_id_only H) as E1.
  assert (Hh : heap s1 = heap s) by (rewrite E1; reflexivity).
  split; [|split].
  - (* the scope is not part of the invariant *)
    change (K (upd_heap s1 (heap s1 ++ [mkCell T id i []]))). rewrite Hh.
    destruct (new_row_id_cases H) as [(n & Hc)|Hg]; [eapply K_consume|eapply K_generate]; eassumption.
  - rewrite E1. reflexivity.
  - intros U. destruct HK as [[_ Hlen] _]. unfold nh at 1. cbn [heap upd_scope upd_heap].
    rewrite Hh, (nh_snoc s _ Hlen), cell_ids_snoc. reflexivity.
Qed.

Lemma write_row_K {s h c s'} :
  write_row s h = Ok s' -> nth_error (heap s) h = Some c ->
  (K s -> K s') /\
  forall T, hidden T = false ->
    written T (out s') = (if String.eqb (c_table c) T then [c_id c] else []) ++ written T (out s).
Proof.
  intros H Hc. destruct (write_row_cases H) as (c' & Hc' & [[Hh ->]|(_ & s1 & fs & E & ->)]);
    rewrite Hc in Hc'; injection Hc' as <-.
  - split; [auto|]. intros T HT.
    destruct (String.eqb_spec (c_table c) T) as [<-|_]; [congruence|reflexivity].
  - apply flatten_fields_touches in E. split.
    + intros HK. exact (touches_K _ _ E HK).
    + intros T _. cbn [out upd_out]. rewrite (touches_out E). reflexivity.
Qed.

Lemma exec_K {e tk s s' r} : exec e tk s s' r -> Kbal s s'.
Proof.
  apply (exec_rel e Kbal Kbal_refl Kbal_trans Kbal_touches); intros.
  - apply Kbal_same; reflexivity.
  - apply Kbal_set_field.
  - eapply Kbal_rnd, random_reference_rnd; eassumption.
  - (* a row: created, filled, remembered, written *)
    intros HK.
    destruct (new_row_K once i H HK) as (K3 & Ho3 & Hc3).
    destruct (new_cell_kept H0 H2) as [Ht Hi].
    destruct (remember_only H3) as (d & x & ->).
    destruct (Kbal_trans _ _ _ H1 (Kbal_same s4 _ eq_refl eq_refl eq_refl eq_refl) K3) as [K5 B5].
    destruct (write_row_K H4 H2) as [K6 Hw6]. rewrite Ht, Hi in Hw6.
    split; [exact (K6 K5)|]. eapply bal_bracket; [exact Ho3|exact Hc3|exact B5|exact Hw6|].
    intros U. rewrite (nh_eq _ _ (write_row_heap _ _ _ H4)). reflexivity.
Qed.

Theorem run_K fuel : forall e tk s s' r,
  run fuel e tk s = Ok (s', r) -> K s -> K s' /\ bal s s'.
Proof. intros e tk s s' r H. exact (exec_K (run_exec H)). Qed.

Lemma fresh_slots_ok e : Forall slot_ok (fresh_slots e).
Proof.
  unfold fresh_slots. induction (name_slots e) as [|[n t] r IH]; cbn [map]; constructor; [|exact IH].
  unfold slot_ok. cbn. reflexivity.
Qed.

(* at the end of an iteration no forward reference is pending, so nothing is lost with the slots *)
Lemma iteration_K {e stmts c s s'} :
  iteration e stmts c s = Ok s' -> K s -> K s' /\ bal s s' /\ (forall T, reserved T (slots s') = []).
Proof.
  intros H HK. destruct (iteration_exec H) as (s1 & r & E & Hf & ->).
  destruct (exec_K E HK) as [[[Hwf Hlen] K1] B1].
  (* reset_hist only touches the random-reference state *)
  change (K (reset_slots e s1) /\ bal s (reset_slots e s1) /\ (forall T, reserved T (slots (reset_slots e s1)) = [])).
  splits.
  - split; [split; [apply fresh_slots_ok|exact Hlen]|]. intros T. destruct (K1 T) as [HP Hnn].
    change (last_id (reset_slots e s1) T) with (last_id s1 T).
    change (nh (reset_slots e s1)) with (nh s1). cbn [slots reset_slots].
    rewrite fresh_slots_reserved. rewrite (slots_filled_reserved s1 T Hf) in HP. split; assumption.
  - eapply bal_trans; [exact B1|]. apply bal_quiet; reflexivity.
  - intros T. apply fresh_slots_reserved.
Qed.

Lemma iterations_K k : forall e stmts c s s',
  iterations k e stmts c s = Ok s' -> K s -> (forall T, reserved T (slots s) = []) ->
  K s' /\ bal s s' /\ (forall T, reserved T (slots s') = []).
Proof.
  induction k as [|k IH]; intros e stmts c s s' H HK Hr; cbn [iterations] in H.
  - injection H as <-. splits; [exact HK|apply bal_refl|exact Hr].
  - dbind H as s1. destruct (iteration_K E HK) as (K1 & B1 & R1).
    destruct (IH _ _ _ _ _ H K1 R1) as (K2 & B2 & R2). splits; [exact K2|eapply bal_trans; eassumption|exact R2].
Qed.

End WithMissing.

Definition start_ok (s0 : st) : Prop :=
  Forall slot_ok (slots s0) /\ (forall T, reserved T (slots s0) = []) /\
  (forall T, 0 <= last_id s0 T) /\ out s0 = [].

(* [miss] := the ids 1..last0 issued before the run, [n0] := all cells of the start state.  The block of
   ids is that of the cells, so it is there for hidden tables too. *)
Lemma run_cells {e stmts c k s0 s} :
  start_ok s0 -> iterations k e stmts c s0 = Ok s ->
  start_ok (upd_out s []) /\ bal (length (heap s0)) s0 s /\
  forall T, last_id s0 T <= last_id s T /\
    Permutation (cell_ids T (skipn (length (heap s0)) (heap s)))
                (Zseq (last_id s0 T + 1) (Z.to_nat (last_id s T - last_id s0 T))).
Proof.
  intros (Hwf0 & Hr0 & Hnn0 & Hout0) H.
  destruct (iterations_K (fun T => Zseq 1 (Z.to_nat (last_id s0 T))) (length (heap s0)) k _ _ _ _ _ H)
    as ([[Hwf _] HK] & HB & HR); [|exact Hr0|].
  { split; [split; [exact Hwf0|lia]|]. intros T.
    unfold nh. rewrite skipn_all, Hr0, app_nil_r. split; [apply Permutation_refl|apply Hnn0]. }
  split; [|split; [exact HB|]].
  { unfold start_ok. cbn [slots out upd_out]. splits; try assumption; try reflexivity. intros T. apply HK. }
  intros T. destruct (HK T) as [HP Hnn]. rewrite HR in HP. cbn [app] in HP. specialize (Hnn0 T).
  assert (Hle : last_id s0 T <= last_id s T).
  { apply Permutation_length in HP. rewrite app_length, !Zseq_length in HP. lia. }
  split; [exact Hle|].
  rewrite (Zseq_next (last_id s0 T) (last_id s T)) in HP by lia. apply Permutation_app_inv_l in HP. exact HP.
Qed.

Theorem ids_dense_run e stmts c k s0 s :
  start_ok s0 -> iterations k e stmts c s0 = Ok s ->
  start_ok (upd_out s []) /\
  forall T, last_id s0 T <= last_id s T /\
    (hidden T = false ->
     Permutation (written T (out s))
                 (Zseq (last_id s0 T + 1) (Z.to_nat (last_id s T - last_id s0 T)))).
Proof.
  intros Hs0 H. destruct (run_cells Hs0 H) as (Hok & HB & HD).
  split; [exact Hok|]. intros T. destruct (HD T) as [Hle HP]. split; [exact Hle|]. intros HT.
  destruct (HB T HT) as (dw & dc & [Hw Hc] & Hp). destruct Hs0 as (_ & _ & _ & Hout0).
  rewrite Hout0 in Hw. unfold nh in Hc. rewrite skipn_all in Hc. cbn [written flat_map cell_ids filter map app] in Hw, Hc.
  rewrite Hw, app_nil_r, Hp, <- Hc. exact HP.
Qed.

Lemma init_start_ok e dr : start_ok (init_st e dr).
Proof.
  unfold start_ok. cbn [init_st slots out]. splits.
  - apply fresh_slots_ok.
  - intros T. apply fresh_slots_reserved.
  - intros T. apply Z.le_refl.
  - reflexivity.
Qed.

Theorem ids_dense_fresh r k s :
  run_fresh r k = Ok s ->
  forall T, hidden T = false ->
    Permutation (written T (out s)) (Zseq 1 (Z.to_nat (last_id s T))).
Proof.
  unfold run_fresh. intros H T HT.
  destruct (ids_dense_run _ _ _ _ _ _ (init_start_ok _ _) H) as [_ HD].
  destruct (HD T) as [_ HP]. specialize (HP HT).
  change (last_id (init_st _ _) T) with 0 in HP. rewrite Z.sub_0_r in HP. exact HP.
Qed.

Lemma load_spec {e c s0} : load e c = Ok s0 ->
  exists h, s0 = mkSt (k_ids c) (fresh_slots e) [] [] (k_p_nicks c) (k_p_tables c) (k_heap c)
                      [mkFrame [] None] (k_deps c) [] (mkR h (k_draws c)).
Proof.
  unfold load. intros H. dbind H as h. injection H as <-. exists h. reflexivity.
Qed.

Lemma load_last_id {e c s0 T} : load e c = Ok s0 ->
  last_id s0 T = match lookup T (k_ids c) with Some z => z | None => 0 end.
Proof. intros Hl. destruct (load_spec Hl) as [h ->]. reflexivity. Qed.

Lemma load_start_ok {e c s0} : load e c = Ok s0 ->
  (forall T, 0 <= match lookup T (k_ids c) with Some z => z | None => 0 end) ->
  start_ok s0.
Proof.
  intros Hl Hnn. destruct (load_spec Hl) as [h ->]. unfold start_ok. cbn [slots out]. splits.
  - apply fresh_slots_ok.
  - intros T. apply fresh_slots_reserved.
  - exact Hnn.
  - reflexivity.
Qed.

Lemma save_ids {s c} : save s = Ok c -> k_ids c = ids s.
Proof.
  unfold save. intros H. dbind H as h1. injection H as <-. reflexivity.
Qed.

(* where numbering resumes: the first row of T in a run gets [resume_id c T + 1] *)
Definition resume_id (c : option cont) (T : string) : Z :=
  match c with
  | Some c0 => match lookup T (k_ids c0) with Some z => z | None => 0 end
  | None => 0
  end.

Lemma resume_id_save {s c} T : save s = Ok c -> resume_id (Some c) T = last_id s T.
Proof. intros H. cbn [resume_id]. rewrite (save_ids H). reflexivity. Qed.

Theorem resume_after_highest e s c s0 T : save s = Ok c -> load e c = Ok s0 -> last_id s0 T = last_id s T.
Proof. intros H Hl. rewrite (load_last_id Hl). apply (resume_id_save _ H). Qed.

Lemma run_one_dense {r k c s} :
  run_one r k c = Ok s -> (forall T, 0 <= resume_id c T) ->
  forall T, 0 <= last_id s T /\ resume_id c T <= last_id s T /\
    (hidden T = false ->
     Permutation (written T (rows_of s)) (Zseq (resume_id c T + 1) (Z.to_nat (last_id s T - resume_id c T)))).
Proof.
  intros H Hc.
  assert (Hrun : exists s0 b, start_ok s0 /\ (forall U, last_id s0 U = resume_id c U) /\
                              iterations k (env_of r) (r_stmts r) b s0 = Ok s).
  { destruct c as [c0|]; cbn [run_one] in H.
    - dbind H as sl. exists sl, true.
      splits; [eapply load_start_ok; eassumption|intros U; eapply load_last_id; eassumption|exact H].
    - exists (init_st (env_of r) (r_draws r)), false. splits; [apply init_start_ok|reflexivity|exact H]. }
  destruct Hrun as (s0 & b & Hs0 & Hbase & Hit).
  destruct (ids_dense_run _ _ _ _ _ _ Hs0 Hit) as [(_ & _ & Hnn & _) HD].
  intros T. destruct (HD T) as [Hle HP]. rewrite Hbase in HP, Hle. splits; [apply Hnn|exact Hle|].
  intros HT. unfold rows_of. rewrite written_rev. exact (HP HT).
Qed.

Lemma history_dense r ks : forall (c : option cont) (rowss : list (list orow)),
  run_history r ks c = Ok rowss -> (forall T, 0 <= resume_id c T) ->
  forall T, hidden T = false ->
    exists n, Permutation (written T (concat rowss)) (Zseq (resume_id c T + 1) n).
Proof.
  induction ks as [|k rest IH]; intros c rowss H Hc T HT; cbn [run_history] in H.
  - injection H as <-. exists 0%nat. constructor.
  - dbind H as s. pose proof (run_one_dense E Hc) as HD.
    destruct (HD T) as (_ & Hle & HP). specialize (HP HT).
    destruct rest as [|k2 rest2].
    + injection H as <-. cbn [concat]. rewrite app_nil_r. eexists. exact HP.
    + dbind H as c1. dbind H as tl. injection H as <-.
      destruct (IH (Some c1) tl E1) with (T := T) as (n2 & Hn2); [|exact HT|].
      { intros U. rewrite (resume_id_save U E0). apply HD. }
      rewrite (resume_id_save T E0) in Hn2.
      exists (Z.to_nat (last_id s T - resume_id c T) + n2)%nat.
      cbn [concat]. unfold written. rewrite flat_map_app, Zseq_app. apply Permutation_app; [exact HP|].
      replace (resume_id c T + 1 + Z.of_nat (Z.to_nat (last_id s T - resume_id c T))) with (last_id s T + 1) by lia.
      exact Hn2.
Qed.

Theorem ids_dense_history r ks rowss :
  run_history r ks None = Ok rowss ->
  forall T, hidden T = false -> exists n, Permutation (written T (concat rowss)) (Zseq 1 n).
Proof. intros H. apply (history_dense r ks None rowss H). reflexivity. Qed.
