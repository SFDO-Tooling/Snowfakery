(* The evaluator only appends cells and fills fields, so a handle keeps denoting a row of the same
   table, id and child index ([heap_ext]). *)
From Coq Require Import ZArith List Lia Bool Permutation ZifyBool.
From SFV Require Import Base Interp.
From SFV.P Require Import BaseP InterpP.
Import ListNotations. Open Scope Z_scope.

Lemma write_row_heap s h s' : write_row s h = Ok s' -> heap s' = heap s.
Proof. intros H. destruct (write_row_touches H) as (s1 & o & T & ->). exact (touches_heap T). Qed.

Definition same_key (c c' : cell) : Prop :=
  c_table c' = c_table c /\ c_id c' = c_id c /\ c_index c' = c_index c.

Definition heap_ext (s s' : st) : Prop :=
  forall h c, nth_error (heap s) h = Some c ->
              exists c', nth_error (heap s') h = Some c' /\ same_key c c'.

Lemma heap_ext_refl s : heap_ext s s.
Proof. intros h c H. exists c. unfold same_key. auto. Qed.

Lemma heap_ext_eq s s' : heap s' = heap s -> heap_ext s s'.
Proof. intros E h c H. exists c. rewrite E. unfold same_key. auto. Qed.

Lemma heap_ext_trans s1 s2 s3 : heap_ext s1 s2 -> heap_ext s2 s3 -> heap_ext s1 s3.
Proof.
  intros H1 H2 h c Hc. destruct (H1 h c Hc) as (c' & Hc' & k1 & k2 & k3).
  destruct (H2 h c' Hc') as (c'' & Hc'' & k4 & k5 & k6). exists c''. unfold same_key. splits; congruence.
Qed.

Lemma nth_error_set_nth {A} (l : list A) : forall i j x,
  nth_error (set_nth i x l) j =
  if Nat.eqb i j then (match nth_error l j with Some _ => Some x | None => None end) else nth_error l j.
Proof.
  induction l as [|y r IH]; intros i j x; cbn [set_nth].
  - destruct i, j; cbn [nth_error Nat.eqb]; try reflexivity. destruct (Nat.eqb i j); reflexivity.
  - destruct i, j; cbn [nth_error Nat.eqb]; try reflexivity. apply IH.
Qed.

Lemma set_nth_length {A} (l : list A) : forall i x, length (set_nth i x l) = length l.
Proof. induction l as [|y r IH]; intros i x; destruct i; cbn [set_nth length]; auto. Qed.

Lemma set_field_ext s h n v : heap_ext s (set_field s h n v).
Proof.
  unfold set_field. destruct (nth_error (heap s) h) as [c0|] eqn:E; [|apply heap_ext_refl].
  intros j c Hc. cbn [heap upd_heap]. rewrite nth_error_set_nth.
  destruct (Nat.eqb h j) eqn:Ej.
  - apply Nat.eqb_eq in Ej. subst j. rewrite Hc. rewrite E in Hc. injection Hc as <-.
    eexists. split; [reflexivity|]. unfold same_key. cbn. auto.
  - exists c. unfold same_key. auto.
Qed.

Lemma heap_snoc_ext s x : heap_ext s (upd_heap s (heap s ++ [x])).
Proof.
  intros h c Hc. exists c. cbn [heap upd_heap]. split; [|unfold same_key; auto].
  rewrite nth_error_app1; [exact Hc|]. apply nth_error_Some. congruence.
Qed.

Lemma exec_heap_ext {e tk s s' r} : exec e tk s s' r -> heap_ext s s'.
Proof.
  apply (exec_preorder e heap_ext heap_ext_refl heap_ext_trans); intros.
  - apply heap_ext_eq, touches_heap. assumption.
  - apply heap_ext_eq. reflexivity.
  - apply set_field_ext.
  - apply heap_ext_eq. destruct H as [x ->]. reflexivity.
  - apply heap_ext_eq. rewrite (new_row_id_only H). reflexivity.
  - rewrite new_row_only. exact (heap_snoc_ext s0 _).
  - apply heap_ext_eq. rewrite remember_deps_only. reflexivity.
  - apply heap_ext_eq. eapply write_row_heap. eassumption.
Qed.

Theorem run_heap_ext fuel : forall e tk s s' r,
  run fuel e tk s = Ok (s', r) -> heap_ext s s'.
Proof. intros. eapply exec_heap_ext, run_exec. eassumption. Qed.

Lemma new_cell_kept {e s1 T id i nick once fs s4 r c} :
  exec e (TFields (length (heap s1)) fs) (new_row s1 T nick once id i) s4 r ->
  nth_error (heap s4) (length (heap s1)) = Some c -> c_table c = T /\ c_id c = id.
Proof.
  intros H Hc. apply exec_heap_ext in H.
  destruct (H (length (heap s1)) (mkCell T id i [])) as (c' & Hc' & Ht & Hi & _).
  - rewrite new_row_only. cbn [heap upd_scope upd_heap]. rewrite nth_error_app2, Nat.sub_diag by lia. reflexivity.
  - rewrite Hc in Hc'. injection Hc' as <-. split; assumption.
Qed.

(* [out] is kept newest-first: read the concatenation from right to left *)
Theorem row_emission_order n e t i s s' r :
  run (S n) e (TRow t i) s = Ok (s', r) ->
  exists fields_rows this friends_rows,
    out s' = friends_rows ++ this ++ fields_rows ++ out s /\
    Forall clean_row fields_rows /\ Forall clean_row friends_rows /\
    (this = [] \/ exists row, this = [row] /\ fst row = t_table t /\ clean_row row).
Proof.
  intros H. cbn [run] in H.
  destruct (new_row_id s (t_table t) (t_nick t)) as [s1 id] eqn:Hid.
  dbind H as [s4 r4].
  destruct (nth_error (heap s4) (length (heap s1))) as [c|] eqn:Hc; [|discriminate].
  dbind H as s5. dbind H as s6. dbind H as [s7 r7]. injection H as <- _.
  apply run_exec in E. fold (new_row s1 (t_table t) (t_nick t) (t_once t) id i) in E.
  destruct (new_cell_kept E Hc) as [Hct _].
  apply exec_extends in E. destruct E as (nf & Hnf & Fnf).
  rewrite new_row_only, (new_row_id_only Hid) in Hnf. cbn [out upd_scope upd_heap upd_slots upd_ids] in Hnf.
  apply run_extends in E2. destruct E2 as (nfr & Hnfr & Fnfr).
  destruct (remember_history_rnd E0) as [x ->]. apply write_row_spec in E1.
  rewrite remember_deps_only in E1. cbn [out heap upd_rnd upd_deps] in E1.
  destruct E1 as [Hs|(row & Hr & Hclean & c' & Hc' & Ht & _)].
  - exists nf, [], nfr. rewrite Hnfr, Hs, Hnf. cbn [app]. splits; auto.
  - exists nf, [row], nfr. rewrite Hnfr, Hr, Hnf. cbn [app]. splits; auto.
    right. exists row. splits; auto. rewrite Hc in Hc'. injection Hc' as <-. congruence.
Qed.

(* For C09: no test of [hidden] in it.  The evaluator uses a field's name only as the key under which
   the value is stored, and what is stored is what formulas and references read. *)
Lemma stored_field_readable s h name v c :
  String.eqb name "id" = false -> nth_error (heap s) h = Some c ->
  exists c', nth_error (heap (set_field s h name v)) h = Some c' /\ row_attr c' name = Some v /\
             same_key c c'.
Proof.
  intros Hid Hc. unfold set_field. rewrite Hc. cbn [heap upd_heap]. rewrite nth_error_set_nth, Nat.eqb_refl, Hc.
  eexists. split; [reflexivity|]. split.
  - unfold row_attr. rewrite Hid. cbn [c_fields]. apply lookup_assign_same.
  - unfold same_key. cbn. auto.
Qed.

Inductive loop_rows (e : env) (t : template) : Z -> Z -> st -> st -> option nat -> option nat -> Prop :=
| loop_done i cnt s last : cnt <= i -> loop_rows e t i cnt s s last last
| loop_step i cnt s s1 s' h last last' fuel :
    i < cnt ->
    run fuel e (TRow t i) (set_var s "child_index" (VInt i)) = Ok (s1, RRow h) ->
    loop_rows e t (i + 1) cnt s1 s' h last' ->
    loop_rows e t i cnt s s' last last'.

Theorem loop_generates_count_rows fuel : forall e t i cnt last s s' r,
  run fuel e (TLoop t i cnt last) s = Ok (s', r) ->
  exists last', r = RRow last' /\ loop_rows e t i cnt s s' last last'.
Proof.
  induction fuel as [|n IH]; intros e t i cnt last s s' r H; [discriminate|].
  cbn [run] in H. destruct (i <? cnt) eqn:E.
  - dbind H as [s1 r1]. destruct r1 as [|v|h]; try discriminate.
    destruct (IH _ _ _ _ _ _ _ _ H) as (last' & -> & HL).
    exists last'. split; [reflexivity|]. eapply loop_step; [lia|exact E0|exact HL].
  - injection H as <- <-. exists last. split; [reflexivity|]. apply loop_done. lia.
Qed.

Lemma loop_rows_count e t i cnt s s' last last' :
  loop_rows e t i cnt s s' last last' -> i <= cnt ->
  exists n : nat, Z.of_nat n = cnt - i.
Proof. intros _ H. exists (Z.to_nat (cnt - i)). lia. Qed.
