(* IsolationP.v — proofs about the process-state model of theories/Isolation.v (property C19).
   A run is followed stage by stage: one operation ([step]), the operations of one iteration
   ([exec_ops]), the loop ([iterate], an unrolling of exec_ops), the parse stage ([pre_execute]).
   For each stage two things are shown: what it leaves behind in the process ([keeps]), and that
   two processes which agree on what it reads ([sim]) give the same result.  The independence
   theorems of C19 are corollaries of [noninterference] and [run_keeps]. *)
From Coq Require Import Lia.
From SFV Require Import Base Isolation UniqueId.
From SFV.P Require Import BaseP UniqueIdP.

Lemma assoc_find_In {V} k (l : list (key * V)) v : assoc_find k l = Some v -> In (k, v) l.
Proof.
  induction l as [|[k' v'] l IH]; cbn [assoc_find]; [discriminate|].
  destruct (String.eqb_spec k k') as [<-|_]; [intros [= ->]; left; reflexivity|right; auto].
Qed.

Lemma assoc_remove_In {V} k (l : list (key * V)) x : In x (assoc_remove k l) -> In x l.
Proof.
  induction l as [|[k' v'] l IH]; cbn [assoc_remove]; [tauto|].
  destruct (String.eqb k k'); cbn [In]; tauto.
Qed.

Lemma assoc_find_set k' k v l :
  assoc_find k' (assoc_set k v l) = if String.eqb k' k then Some v else assoc_find k' l.
Proof.
  induction l as [|[k2 v2] l IH]; cbn [assoc_set assoc_find]; [reflexivity|].
  destruct (String.eqb_spec k k2) as [<-|N]; cbn [assoc_find].
  - destruct (String.eqb k' k); reflexivity.
  - rewrite IH. destruct (String.eqb_spec k' k2) as [->|_]; [|reflexivity].
    apply String.eqb_neq in N. rewrite String.eqb_sym, N. reflexivity.
Qed.

Lemma gslot_eqb_spec a b : reflect (a = b) (gslot_eqb a b).
Proof. destruct a, b; constructor; congruence. Qed.

Lemma gen_find_set g' g x l :
  gen_find g' (gen_set g x l) = if gslot_eqb g' g then Some x else gen_find g' l.
Proof.
  induction l as [|[g2 y] l IH]; cbn [gen_set gen_find]; [reflexivity|].
  destruct (gslot_eqb_spec g g2) as [<-|N]; cbn [gen_find].
  - destruct (gslot_eqb g' g); reflexivity.
  - rewrite IH. destruct (gslot_eqb_spec g' g2) as [->|_]; [|reflexivity].
    destruct (gslot_eqb_spec g2 g); congruence.
Qed.

Lemma firstn_In {A} n (l : list A) x : In x (firstn n l) -> In x l.
Proof. revert l. induction n; intros [|a l]; cbn [firstn In]; try tauto. intros [H|H]; auto. Qed.

Lemma NoDup_map_filter {A B} (f : A -> B) (q : A -> bool) l :
  NoDup (map f l) -> NoDup (map f (filter q l)).
Proof.
  induction l as [|a l IH]; cbn [map filter]; [auto|].
  intros H. inversion H as [|? ? Ha Hl]; subst. destruct (q a); cbn [map]; auto.
  constructor; auto. intros Hin. apply Ha.
  apply in_map_iff in Hin. destruct Hin as (y & Hy & Hf). apply filter_In in Hf.
  apply in_map_iff. exists y. tauto.
Qed.

Section Cache.
  Variable P : key -> Z -> Prop.

  Definition items_sat (c : lru) : Prop := forall k v, In (k, v) (l_items c) -> P k v.

  Lemma lru_call_items n f c k :
    items_sat c -> (forall v, f k = Some v -> P k v) -> items_sat (fst (lru_call n f c k)).
  Proof.
    intros Hc Hf. unfold lru_call.
    destruct (assoc_find k (l_items c)) as [v|] eqn:E.
    - cbn [fst l_items]. intros k' v' [H|H].
      + injection H as <- <-. apply Hc. apply assoc_find_In. exact E.
      + apply Hc. eapply assoc_remove_In. exact H.
    - destruct (f k) as [v|] eqn:F; cbn [fst l_items]; auto.
      intros k' v' H. apply firstn_In in H. destruct H as [H|H]; auto.
      injection H as <- <-. auto.
  Qed.
End Cache.

Lemma lru_call_value n f c k :
  (forall v, In (k, v) (l_items c) -> f k = Some v) ->
  lru_call n f c k = (fst (lru_call n f c k), f k).
Proof.
  intros H. unfold lru_call. destruct (assoc_find k (l_items c)) as [v|] eqn:E.
  - rewrite (H v (assoc_find_In _ _ _ E)). reflexivity.
  - destruct (f k); reflexivity.
Qed.

Lemma lru_call_misses n f c k : l_misses c <= l_misses (fst (lru_call n f c k)).
Proof.
  unfold lru_call. destruct (assoc_find k (l_items c)); [cbn; lia|].
  destruct (f k); cbn [fst l_misses]; lia.
Qed.

(* The argument in the abstract, for ANY state space and ANY run function.  [R a b]: the states a
   and b cannot be told apart by a run of an admissible job ([reads_only_R]).  [restores]: a run -
   of any job, admissible or not, and whatever its exit path: the result component, which says
   whether it ended normally, with a recipe error or with another exception, is not consulted -
   leaves a state that cannot be told apart from the one it started in.  Then no history of runs
   can change the outcome of the next admissible job. *)
Section Restore.
  Variables St In Out : Type.
  Variable grun : St -> In -> St * Out.
  Variable R : St -> St -> Prop.
  Variable admissible : In -> Prop.
  Hypothesis R_sym : forall a b, R a b -> R b a.
  Hypothesis R_trans : forall a b c, R a b -> R b c -> R a c.
  Hypothesis reads_only_R : forall s1 s2 i, admissible i -> R s1 s2 -> snd (grun s1 i) = snd (grun s2 i).
  Hypothesis restores : forall s i, R s s -> R (fst (grun s i)) s.

  Fixpoint gafter (s : St) (h : list In) : St :=
    match h with [] => s | i :: r => gafter (fst (grun s i)) r end.

  Lemma gafter_R h : forall s, R s s -> R (gafter s h) s.
  Proof.
    induction h as [|i h IH]; intros s Hs; cbn [gafter]; [exact Hs|].
    pose proof (restores s i Hs) as H1.
    apply R_trans with (fst (grun s i)); [|exact H1].
    apply IH. apply R_trans with s; [exact H1|apply R_sym, H1].
  Qed.

  Theorem restoring_runs_independent s h i :
    R s s -> admissible i -> snd (grun (gafter s h) i) = snd (grun s i).
  Proof. intros Hs Hi. apply reads_only_R; [exact Hi|]. apply gafter_R, Hs. Qed.
End Restore.

Lemma proc_eta p :
  mkProc (p_uid p) (p_dates p) (p_dts p) (p_masks p) (p_rowhist p) (p_cwd p) (p_path p) (p_home p)
         (p_modules p) (p_app p) = p.
Proof. destruct p; reflexivity. Qed.

Section P.
  Variable parse_d parse_dt : key -> option Z.
  Variable read_file : string -> string -> result Z.
  Variable load_plugin : string -> string -> result bool.

  Notation step := (step parse_d parse_dt read_file).
  Notation exec_ops := (exec_ops parse_d parse_dt read_file).
  Notation iterate := (iterate parse_d parse_dt read_file).
  Notation with_chdir := (with_chdir read_file).
  Notation resolve_all := (resolve_all load_plugin).
  Notation with_plugin_path := (with_plugin_path load_plugin).
  Notation pre_execute := (pre_execute load_plugin).
  Notation run := (run parse_d parse_dt read_file load_plugin).
  Notation run_seq := (run_seq parse_d parse_dt read_file load_plugin).
  Notation after_from := (after_from parse_d parse_dt read_file load_plugin).

  Definition date_entry_ok (k : key) (v : Z) : Prop := parse_d k = Some v.
  Definition dt_entry_ok (k : key) (v : Z) : Prop := parse_dt k = Some v.

  Definition coherent (p : proc) : Prop :=
    items_sat date_entry_ok (p_dates p) /\ items_sat dt_entry_ok (p_dts p).

  Lemma coherent_init cwd home : coherent (proc_init cwd home).
  Proof. split; intros k v H; destruct H. Qed.

  Lemma coherent_proc0 : coherent proc0.
  Proof. apply coherent_init. Qed.

  Lemma coherent_lookup p k :
    coherent p ->
    snd (lru_call date_cache_size parse_d (p_dates p) k) = parse_d k /\
    snd (lru_call date_cache_size parse_dt (p_dts p) k) = parse_dt k.
  Proof.
    intros [Hd Ht]. rewrite (lru_call_value _ parse_d _ k (Hd k)), (lru_call_value _ parse_dt _ k (Ht k)).
    split; reflexivity.
  Qed.

  Lemma coherent_call p k :
    (coherent p -> coherent (set_dates p (fst (lru_call date_cache_size parse_d (p_dates p) k)))) /\
    (coherent p -> coherent (set_dts p (fst (lru_call date_cache_size parse_dt (p_dts p) k)))).
  Proof.
    split; intros [Hd Ht]; split; cbn [set_dates set_dts p_dates p_dts]; auto; apply lru_call_items; auto.
  Qed.

  Definition ambient (p : proc) : string * list string * string := (p_cwd p, p_path p, p_home p).

  Definition keeps (p p' : proc) : Prop :=
    (coherent p -> coherent p') /\ p_uid p <= p_uid p' /\ ambient p' = ambient p /\
    incl (p_modules p) (p_modules p').

  Lemma keeps_refl p : keeps p p.
  Proof. unfold keeps. splits; auto using incl_refl. lia. Qed.

  Lemma keeps_trans p q r : keeps p q -> keeps q r -> keeps p r.
  Proof.
    intros (C1 & U1 & A1 & M1) (C2 & U2 & A2 & M2). unfold keeps.
    splits; [auto|lia|congruence|exact (incl_tran M1 M2)].
  Qed.

  (* [set_app], [set_rowhist] and what the parse stage does have this form: caches, counter and
     ambient state as they were, a larger import cache *)
  Lemma keeps_rest p m h ms a :
    incl (p_modules p) ms ->
    keeps p (mkProc (p_uid p) (p_dates p) (p_dts p) m h (p_cwd p) (p_path p) (p_home p) ms a).
  Proof. intros I. unfold keeps. splits; auto. cbn. lia. Qed.

  Lemma with_chdir_value fin d p file : snd (with_chdir fin d p file) = read_file d file.
  Proof.
    unfold Isolation.with_chdir. cbn [set_cwd p_cwd]. destruct (read_file d file); reflexivity.
  Qed.

  (* `with chdir(d)` as it is in the code (try/finally): however the block is left - normally, by a
     DataGenError or by any other exception - the process is exactly as before *)
  Lemma with_chdir_restores d p file : with_chdir true d p file = (p, read_file d file).
  Proof.
    unfold Isolation.with_chdir. cbn [set_cwd p_cwd].
    destruct (read_file d file); f_equal; exact (proc_eta p).
  Qed.

  (* ODatetime: the three branches of parse_datetimespec that answer from the clock *)
  Ltac dt_branches k :=
    destruct (String.eqb k "now"); [|destruct (String.eqb k "today"); [|destruct (is_relative_spec k)]].

  (* What one operation may write in the process: it leaves working directory, search path,
     environment, import cache and application object alone and keeps the caches coherent; what it
     does to the context variable and to the counter depends on nothing else in the process. *)
  Definition frame (o : op) (s : rstate) (p p' : proc) : Prop :=
    (coherent p -> coherent p') /\ ambient p' = ambient p /\ p_modules p' = p_modules p /\
    p_app p' = p_app p /\
    p_rowhist p' = match o, p_rowhist p with
                   | ORow t, Some h => Some ((t, last_id t s + 1) :: h)
                   | _, h => h
                   end /\
    p_uid p' = match o with
               | OUid g => if gen_find g (rs_gens s) then p_uid p else p_uid p + 1
               | _ => p_uid p
               end.

  (* ... and, when it succeeds, in the run state: the start ids stay; only a row touches the ids or
     reports one; only a unique id touches the generators or reports one. *)
  Definition effect (o : op) (s : rstate) (r : result (rstate * list obs)) : Prop :=
    match r with
    | Ok (s', b) =>
      rs_start s' = rs_start s /\
      match o with ORow _ => True | _ => rs_ids s' = rs_ids s /\ forall t, ids_of t b = [] end /\
      match o with OUid _ => True | _ => rs_gens s' = rs_gens s /\ uid_obs b = [] end
    | Err _ => True
    end.

  Lemma step_writes e cx p s o :
    frame o s p (fst (step e cx p s o)) /\ effect o s (snd (step e cx p s o)).
  Proof.
    (* per operation the tests its branch of [step] makes; then every leaf is immediate.  [frame] and
       [effect] are unfolded at the leaves, so that the case splits work on a small goal; only for a
       row and a unique id does [frame] look at what [step] tests *)
    destruct o; cbn [Isolation.step];
      [ (* ORow *) unfold frame; destruct (p_rowhist p) eqn:E
      | (* OCounter *)
      | (* OUid *) unfold frame; destruct (gen_find g (rs_gens s)) as [[c i]|]
      | (* ODate *) destruct (coherent_call p k) as [L _]; destruct (is_object_key k);
        [destruct (parse_d k)|destruct (lru_call _ _ _ _) as [c [v|]]]
      | (* ODatetime *) destruct (coherent_call p k) as [_ L]; dt_branches k; [| | |destruct (is_object_key k);
        [destruct (parse_dt k)|destruct (lru_call _ _ _ _) as [c [v|]]]]
      | (* OLazy *) destruct (p_rowhist p); [destruct (existsb _ _)|]
      | (* OVersion *)
      | (* OFail *)
      | (* OFailAt *) destruct (last_id table s =? n)
      | (* ODateOnce *) destruct (coherent_call p k) as [L _]; destruct (assoc_find site (rs_states s));
        [|destruct (is_object_key k); [destruct (parse_d k)|destruct (lru_call _ _ _ _) as [c [v|]]]]
      | (* ODataset *) destruct (assoc_find site (rs_states s));
        [|rewrite with_chdir_restores; destruct (read_file _ file)]
      ]; unfold frame, effect; cbn [fst snd]; splits; auto.
  Qed.

  Lemma step_keeps e cx p s o : keeps p (fst (step e cx p s o)).
  Proof.
    destruct (step_writes e cx p s o) as [(C & A & M & _ & _ & U) _]. unfold keeps. rewrite A, M, U.
    splits; auto using incl_refl. destruct o; try lia. destruct (gen_find _ _); lia.
  Qed.

  (* no operation reads or writes the application object *)
  Lemma step_set_app e cx p a s o :
    step e cx (set_app p a) s o = let '(q, x) := step e cx p s o in (set_app q a, x).
  Proof.
    destruct o; cbn [Isolation.step set_app p_rowhist p_uid p_dates p_dts p_cwd];
      [ (* ORow *) destruct (p_rowhist p)
      | (* OCounter *)
      | (* OUid *) destruct (gen_find g (rs_gens s)) as [[c i]|]
      | (* ODate *) destruct (is_object_key k); [|destruct (lru_call _ _ _ _)]
      | (* ODatetime *) dt_branches k; [| | |destruct (is_object_key k); [|destruct (lru_call _ _ _ _)]]
      | (* OLazy *) destruct (p_rowhist p); [destruct (existsb _ _)|]
      | (* OVersion *)
      | (* OFail *)
      | (* OFailAt *) destruct (last_id table s =? n)
      | (* ODateOnce *) destruct (assoc_find site (rs_states s));
        [|destruct (is_object_key k); [|destruct (lru_call _ _ _ _)]]
      | (* ODataset *) destruct (assoc_find site (rs_states s));
        [|rewrite !with_chdir_restores; destruct (read_file _ file)]
      ]; reflexivity.
  Qed.

  Lemma exec_keeps e cx ops : forall p s,
    let p' := fst (fst (exec_ops e cx p s ops)) in keeps p p' /\ p_app p' = p_app p.
  Proof.
    induction ops as [|o ops IH]; intros p s; cbn zeta; cbn [Isolation.exec_ops].
    - split; [apply keeps_refl|reflexivity].
    - pose proof (step_keeps e cx p s o) as K. destruct (step_writes e cx p s o) as [(_ & _ & _ & A & _) _].
      destruct (step e cx p s o) as [p' [[s' b]|er]]; cbn [fst] in *; auto.
      specialize (IH p' s'). cbn zeta in IH. destruct (exec_ops e cx p' s' ops) as [[p'' s''] out].
      cbn [fst] in *. destruct IH as [K' A']. split; [exact (keeps_trans _ _ _ K K')|congruence].
  Qed.

  Lemma exec_ops_app e cx l1 l2 : forall p s,
    exec_ops e cx p s (l1 ++ l2) =
    let '(p1, s1, o1) := exec_ops e cx p s l1 in
    match o_err o1 with
    | Some _ => (p1, s1, o1)
    | None => let '(p2, s2, o2) := exec_ops e cx p1 s1 l2 in
              (p2, s2, mkOut (o_obs o1 ++ o_obs o2) (o_err o2))
    end.
  Proof.
    induction l1 as [|o l1 IH]; intros p s; cbn [app Isolation.exec_ops].
    - cbn [o_err o_obs app]. destruct (exec_ops e cx p s l2) as [[p2 s2] [ob er]]. reflexivity.
    - destruct (step e cx p s o) as [p' [[s' b]|er]]; [|reflexivity].
      rewrite IH. destruct (exec_ops e cx p' s' l1) as [[p1 s1] [ob1 [er1|]]]; [reflexivity|].
      cbn [o_err o_obs]. destruct (exec_ops e cx p1 s1 l2) as [[p2 s2] o2]. cbn [o_obs o_err].
      rewrite app_assoc. reflexivity.
  Qed.

  Lemma exec_set_app e cx a ops : forall p s,
    exec_ops e cx (set_app p a) s ops =
    let '(q, s', out) := exec_ops e cx p s ops in (set_app q a, s', out).
  Proof.
    induction ops as [|o ops IH]; intros p s; cbn [Isolation.exec_ops]; [reflexivity|].
    rewrite step_set_app. destruct (step e cx p s o) as [p' [[s' b]|er]]; [|reflexivity].
    rewrite IH. destruct (exec_ops e cx p' s' ops) as [[q s''] out]. reflexivity.
  Qed.

  (* k iterations written out *)
  Fixpoint flat (k : nat) (body : list op) : list op :=
    match k with O => [] | S k' => body ++ flat k' body end.

  Lemma set_app_idem p a b : set_app (set_app p a) b = set_app p b.
  Proof. reflexivity. Qed.

  (* Whatever the criterion and the application object: what a run observes and what it does to
     the process (apart from the application object, which only the loop writes) is what SOME
     number of iterations written out one after the other observe and do; and if the loop ends
     without an error, the criterion is met in the run state they end in. *)
  Lemma iterate_unroll e cx c body fuel : forall p s, exists k,
    let x := iterate fuel e cx c body p s in
    let y := exec_ops e cx p s (flat k body) in
    o_obs (snd x) = o_obs (snd y) /\ fst x = set_app (fst (fst y)) (p_app (fst x)) /\
    (o_err (snd x) = None -> exists a, snd (end_of_iteration c (snd (fst y)) a) = Ok true).
  Proof.
    assert (Own : forall p, p = set_app p (p_app p)) by (intros p; symmetry; apply proc_eta).
    induction fuel as [|f IH]; intros p s; cbn [Isolation.iterate].
    - exists O. split; [reflexivity|]. split; [apply Own|discriminate].
    - assert (One : flat 1 body = body) by apply app_nil_r.
      destruct (exec_ops e cx p s body) as [[p1 s1] out] eqn:E.
      destruct (o_err out) as [er|] eqn:Eo.
      + exists 1%nat. rewrite One, E. split; [reflexivity|]. split; [apply Own|].
        cbn [snd]. rewrite Eo. discriminate.
      + destruct (end_of_iteration c s1 (p_app p1)) as [a [[|]|er]] eqn:Ee.
        * exists 1%nat. rewrite One, E. split; [reflexivity|]. split; [reflexivity|].
          intros _. exists (p_app p1). cbn [fst snd]. rewrite Ee. reflexivity.
        * destruct (IH (set_app p1 a) s1) as (k & Hk). exists (S k). cbn [flat]. cbn zeta in *.
          rewrite exec_ops_app, E, Eo. rewrite exec_set_app in Hk.
          destruct (iterate f e cx c body (set_app p1 a) s1) as [p2 out2].
          destruct (exec_ops e cx p1 s1 (flat k body)) as [[q s'] o2]. cbn [fst snd o_obs o_err] in *.
          destruct Hk as (A & B & F). rewrite A. split; [reflexivity|]. split; [exact B|exact F].
        * exists 1%nat. rewrite One, E. split; [reflexivity|]. split; [reflexivity|discriminate].
  Qed.

  Lemma iterate_keeps e cx c body fuel p s : keeps p (fst (iterate fuel e cx c body p s)).
  Proof.
    destruct (iterate_unroll e cx c body fuel p s) as (k & _ & -> & _).
    eapply keeps_trans; [apply exec_keeps|]. exact (keeps_rest _ _ _ _ _ (incl_refl _)).
  Qed.

  (* [p] with another import cache and application object: all that the parse stage writes *)
  Definition with_imports (p : proc) (ms : list string) (a : appst) : proc :=
    mkProc (p_uid p) (p_dates p) (p_dts p) (p_masks p) (p_rowhist p) (p_cwd p) (p_path p) (p_home p) ms a.

  Lemma resolve_all_writes ms : forall p, exists ms',
    incl (p_modules p) ms' /\ fst (resolve_all p ms) = with_imports p ms' (p_app p).
  Proof.
    assert (Base : forall p, exists ms', incl (p_modules p) ms' /\ p = with_imports p ms' (p_app p))
      by (intros p; exists (p_modules p); split; [apply incl_refl|symmetry; apply proc_eta]).
    induction ms as [|m ms IH]; intros p; cbn [Isolation.resolve_all]; [apply Base|].
    destruct (existsb (String.eqb m) (p_modules p)) eqn:E; [apply IH|].
    destruct (find_on_path load_plugin (p_path p) m) as [[|]|er]; [|apply Base..].
    destruct (IH (add_module p m)) as (ms' & I & ->). exists ms'. split; [|reflexivity].
    cbn [add_module p_modules] in I. rewrite E in I. exact (fun x Hx => I x (or_intror Hx)).
  Qed.

  (* `with plugin_path(...)` as it is in the code: sys.path is put back however the block is left *)
  Lemma with_plugin_path_writes p r : exists ms',
    incl (p_modules p) ms' /\ fst (with_plugin_path true p r) = with_imports p ms' (p_app p).
  Proof.
    unfold Isolation.with_plugin_path.
    destruct (resolve_all_writes (r_plugins r) (set_path p (search_path p (r_dir r)))) as (ms' & I & E).
    exists ms'. split; [exact I|].
    destruct (resolve_all _ _) as [p2 [u|er]]; cbn [fst] in *; rewrite E; reflexivity.
  Qed.

  Lemma pre_execute_writes p e r : exists ms',
    incl (p_modules p) ms' /\
    fst (pre_execute p e r) = with_imports p ms' (if e_new_app e then app0 else p_app p).
  Proof.
    (* the checks after the plugins are resolved do not touch the process *)
    assert (F : fst (pre_execute p e r) =
                fst (with_plugin_path true (if e_new_app e then set_app p app0 else p) r)).
    { unfold Isolation.pre_execute. destruct (with_plugin_path true _ r) as [p1 [u|er]]; [|reflexivity].
      destruct (r_stage r); try reflexivity.
      destruct (r_crit r) as [n|t n]; [reflexivity|]. destruct (existsb _ _); reflexivity. }
    rewrite F. destruct (e_new_app e); [exact (with_plugin_path_writes (set_app p app0) r)|].
    exact (with_plugin_path_writes p r).
  Qed.

  (* the parse stage reads the search path, the working directory, HOME - and, for a recipe that
     names local plugin modules, the import cache *)
  Lemma resolve_all_reads ms : forall p1 p2,
    p_path p1 = p_path p2 -> p_modules p1 = p_modules p2 ->
    snd (resolve_all p1 ms) = snd (resolve_all p2 ms) /\
    p_modules (fst (resolve_all p1 ms)) = p_modules (fst (resolve_all p2 ms)).
  Proof.
    induction ms as [|m ms IH]; intros p1 p2 Hp Hm; cbn [Isolation.resolve_all]; [cbn; auto|].
    rewrite <- Hm, <- Hp.
    destruct (existsb (String.eqb m) (p_modules p1)) eqn:E; [apply IH; auto|].
    destruct (find_on_path load_plugin (p_path p1) m) as [[|]|er]; cbn [fst snd]; auto.
    apply IH; unfold add_module; cbn [p_path p_modules]; auto. rewrite <- Hm, E. reflexivity.
  Qed.

  Lemma with_plugin_path_reads p1 p2 r :
    ambient p1 = ambient p2 -> (no_plugins r = true \/ p_modules p1 = p_modules p2) ->
    snd (with_plugin_path true p1 r) = snd (with_plugin_path true p2 r).
  Proof.
    intros Ha Hm. unfold Isolation.with_plugin_path.
    replace (search_path p1 (r_dir r)) with (search_path p2 (r_dir r))
      by (unfold search_path; injection Ha as -> -> ->; reflexivity).
    generalize (search_path p2 (r_dir r)). intros sp. destruct Hm as [Hn|Hm].
    - unfold no_plugins in Hn. destruct (r_plugins r); [reflexivity|discriminate].
    - destruct (resolve_all_reads (r_plugins r) (set_path p1 sp) (set_path p2 sp) eq_refl Hm) as [H _].
      do 2 destruct (resolve_all _ _) as [? [?|?]]; cbn [snd] in *; congruence.
  Qed.

  Lemma pre_execute_reads p1 p2 e r :
    ambient p1 = ambient p2 -> (no_plugins r = true \/ p_modules p1 = p_modules p2) ->
    snd (pre_execute p1 e r) = snd (pre_execute p2 e r).
  Proof.
    intros Ha Hm. unfold Isolation.pre_execute.
    assert (Hw : snd (with_plugin_path true (if e_new_app e then set_app p1 app0 else p1) r) =
                 snd (with_plugin_path true (if e_new_app e then set_app p2 app0 else p2) r))
      by (destruct (e_new_app e); apply with_plugin_path_reads; assumption).
    do 2 destruct (with_plugin_path true _ r) as [? ?]. cbn [snd] in Hw. subst.
    destruct r1 as [u|er]; [|reflexivity]. destruct (r_stage r); try reflexivity.
    destruct (r_crit r) as [n|t n]; [reflexivity|]. destruct (existsb _ _); reflexivity.
  Qed.

  (* Any run - failing or not - leaves the process coherent, never lowers the unique-id counter,
     leaves working directory / search path / HOME as they were and only adds to the import cache:
     for every recipe, continuation and criterion, and so on every exit path - the run may end
     normally, with a DataGenError or with any other exception, at any operation. *)
  Theorem run_keeps p e r : keeps p (fst (run p e r)).
  Proof.
    unfold Isolation.run. destruct (pre_execute_writes p e r) as (ms & I & E).
    destruct (pre_execute p e r) as [p1 [u|er]]; cbn [fst] in *; subst p1.
    - eapply keeps_trans; [|apply iterate_keeps]. exact (keeps_rest _ _ _ _ _ I).
    - exact (keeps_rest _ _ _ _ _ I).
  Qed.

  Lemma after_from_keeps l : forall p, keeps p (after_from p l).
  Proof.
    unfold Isolation.after_from.
    induction l as [|[e r] l IH]; intros p; cbn [Isolation.run_seq fst]; [apply keeps_refl|].
    pose proof (run_keeps p e r) as K. destruct (run p e r) as [p1 o]. specialize (IH p1).
    destruct (run_seq p1 l) as [p2 os]. exact (keeps_trans _ _ _ K IH).
  Qed.

  Lemma after_from_coherent p0 l : coherent p0 -> coherent (after_from p0 l).
  Proof. apply after_from_keeps. Qed.

  (* Two process states in which every operation behaves alike.  [U]: no unique id is drawn;
     otherwise the two must agree on the context counter. *)
  Definition sim (U : Prop) (p1 p2 : proc) : Prop :=
    coherent p1 /\ coherent p2 /\ p_rowhist p1 = p_rowhist p2 /\ ambient p1 = ambient p2 /\
    p_app p1 = p_app p2 /\ (U \/ p_uid p1 = p_uid p2).

  Lemma step_sim U e cx p1 p2 s o :
    sim U p1 p2 -> (U -> is_uid_op o = false) ->
    snd (step e cx p1 s o) = snd (step e cx p2 s o) /\
    sim U (fst (step e cx p1 s o)) (fst (step e cx p2 s o)).
  Proof.
    intros (C1 & C2 & Hr & Ha & Hp & Hu) HU. split.
    - assert (Hcwd : p_cwd p1 = p_cwd p2) by (unfold ambient in Ha; congruence).
      destruct C1 as [D1 T1], C2 as [D2 T2].
      (* [p2] is read where [p1] is: the context variable, the working directory, the counter; the
         caches answer as the parsers do *)
      destruct o; cbn [Isolation.step];
        [ (* ORow *)
        | (* OCounter *)
        | (* OUid *) destruct Hu as [Hu|<-]; [discriminate (HU Hu)|];
          destruct (gen_find g (rs_gens s)) as [[c i]|]
        | (* ODate *) destruct (is_object_key k);
          [|rewrite (lru_call_value _ _ _ k (D1 k)), (lru_call_value _ _ _ k (D2 k))]
        | (* ODatetime *) dt_branches k; [| | |destruct (is_object_key k);
          [|rewrite (lru_call_value _ _ _ k (T1 k)), (lru_call_value _ _ _ k (T2 k))]]
        | (* OLazy *) rewrite <- Hr; destruct (p_rowhist p1); [destruct (existsb _ _)|]
        | (* OVersion *)
        | (* OFail *)
        | (* OFailAt *) destruct (last_id table s =? n)
        | (* ODateOnce *) destruct (assoc_find site (rs_states s)); [|destruct (is_object_key k);
          [|rewrite (lru_call_value _ _ _ k (D1 k)), (lru_call_value _ _ _ k (D2 k))]]
        | (* ODataset *) destruct (assoc_find site (rs_states s));
          [|rewrite <- Hcwd, !with_chdir_restores; destruct (read_file _ file)]
        ]; reflexivity.
    - destruct (step_writes e cx p1 s o) as [(K1 & A1 & _ & B1 & R1 & U1) _].
      destruct (step_writes e cx p2 s o) as [(K2 & A2 & _ & B2 & R2 & U2) _].
      unfold sim. rewrite A1, A2, B1, B2, R1, R2, U1, U2, Hr. splits; auto.
      destruct Hu as [Hu|Hu]; [left; exact Hu|right]. rewrite Hu. reflexivity.
  Qed.

  Lemma exec_sim U e cx ops : forall p1 p2 s,
    sim U p1 p2 -> (U -> existsb is_uid_op ops = false) ->
    let r1 := exec_ops e cx p1 s ops in
    let r2 := exec_ops e cx p2 s ops in
    snd (fst r1) = snd (fst r2) /\ snd r1 = snd r2 /\ sim U (fst (fst r1)) (fst (fst r2)).
  Proof.
    induction ops as [|o ops IH]; intros p1 p2 s Hs HU; cbn zeta; cbn [Isolation.exec_ops]; [auto|].
    assert (HU' : U -> is_uid_op o = false /\ existsb is_uid_op ops = false)
      by (intros u; apply Bool.orb_false_iff, HU, u).
    destruct (step_sim U e cx p1 p2 s o Hs (fun u => proj1 (HU' u))) as (Hsnd & Hsim).
    destruct (step e cx p1 s o) as [q1 x1]. destruct (step e cx p2 s o) as [q2 x2].
    cbn [fst snd] in *. subst x2. destruct x1 as [[s' b]|er]; [|auto].
    destruct (IH q1 q2 s' Hsim (fun u => proj2 (HU' u))) as (A & B & C).
    do 2 destruct (exec_ops e cx _ s' ops) as [[? ?] ?]. cbn [fst snd] in *. subst. auto.
  Qed.

  Lemma iterate_sim U e cx c body fuel : forall p1 p2 s,
    sim U p1 p2 -> (U -> existsb is_uid_op body = false) ->
    snd (iterate fuel e cx c body p1 s) = snd (iterate fuel e cx c body p2 s).
  Proof.
    induction fuel as [|f IH]; intros p1 p2 s Hs HU; cbn [Isolation.iterate snd]; auto.
    pose proof (exec_sim U e cx body p1 p2 s Hs HU) as H. cbn zeta in H.
    destruct (exec_ops e cx p1 s body) as [[q1 s1] o1]. destruct (exec_ops e cx p2 s body) as [[q2 s2] o2].
    cbn [fst snd] in H. destruct H as (<- & <- & C).
    destruct (o_err o1); cbn [snd]; auto.
    pose proof C as (C1 & C2 & Hr & Ha & <- & Hu).
    destruct (end_of_iteration c s1 (p_app q1)) as [a [[|]|er]]; cbn [snd]; auto.
    assert (S' : sim U (set_app q1 a) (set_app q2 a)) by (unfold sim; splits; auto).
    specialize (IH _ _ s1 S' HU).
    do 2 destruct (iterate f e cx c body _ s1) as [? ?]. cbn [snd] in *. subst. reflexivity.
  Qed.

  (* Noninterference.  For the same inputs (recipe, continuation file, stopping criterion, clock,
     application options) the outcome of a run is the same in any two coherent process states with
     the same working directory, search path and HOME
       - if the two states agree on the unique-id context counter, or the recipe draws no unique id;
       - if the application object is new for this run, or is in the same state in both;
       - if the recipe names no local plugin module, or both processes imported the same ones. *)
  Theorem noninterference p1 p2 e r :
    coherent p1 -> coherent p2 -> ambient p1 = ambient p2 ->
    (no_uid r = true \/ p_uid p1 = p_uid p2) ->
    (e_new_app e = true \/ p_app p1 = p_app p2) ->
    (no_plugins r = true \/ p_modules p1 = p_modules p2) ->
    snd (run p1 e r) = snd (run p2 e r).
  Proof.
    intros C1 C2 Ha Hn Happ Hm. unfold Isolation.run.
    pose proof (pre_execute_reads p1 p2 e r Ha Hm) as Hpre.
    destruct (pre_execute_writes p1 e r) as (m1 & _ & E1).
    destruct (pre_execute_writes p2 e r) as (m2 & _ & E2).
    destruct (pre_execute p1 e r) as [q1 x1]. destruct (pre_execute p2 e r) as [q2 x2].
    cbn [fst snd] in *. subst q1 q2 x2. destruct x1 as [u|er]; cbn [snd]; [|reflexivity].
    apply (iterate_sim (no_uid r = true)); [|apply Bool.negb_true_iff].
    unfold sim. splits; auto. destruct Happ as [-> | ->]; reflexivity.
  Qed.

  Definition plain_job (e : env) (r : recipe) : Prop :=
    no_uid r = true /\ e_new_app e = true /\ no_plugins r = true.

  Lemma plain_outcome p1 p2 e r :
    plain_job e r -> coherent p1 -> coherent p2 -> ambient p1 = ambient p2 ->
    snd (run p1 e r) = snd (run p2 e r).
  Proof. intros (Hn & Ha & Hp) C1 C2 A. apply noninterference; auto. Qed.

  Theorem sequence_independent p0 h1 h2 e r :
    coherent p0 -> plain_job e r ->
    snd (run (after_from p0 h1) e r) = snd (run (after_from p0 h2) e r).
  Proof.
    intros C0 J. destruct (after_from_keeps h1 p0) as (K1 & _ & A1 & _).
    destruct (after_from_keeps h2 p0) as (K2 & _ & A2 & _).
    apply plain_outcome; auto. congruence.
  Qed.

  Lemma run_harmless p e1 r1 e r :
    coherent p -> plain_job e r -> snd (run (fst (run p e1 r1)) e r) = snd (run p e r).
  Proof. intros C J. destruct (run_keeps p e1 r1) as (K & _ & A & _). apply plain_outcome; auto. Qed.

  (* The instance of [restoring_runs_independent] for the model.  States that cannot be told apart:
     coherent caches, same working directory / search path / HOME; admissible: a plain job.
     [restores] is run_keeps, [reads_only_R] is plain_outcome. *)
  Theorem history_irrelevant p0 h e r :
    coherent p0 -> plain_job e r ->
    snd (run (gafter proc (env * recipe) outcome (fun p i => run p (fst i) (snd i)) p0 h) e r) = snd (run p0 e r).
  Proof.
    intros C0 J.
    apply (restoring_runs_independent proc (env * recipe) outcome (fun p i => run p (fst i) (snd i))
             (fun p1 p2 => coherent p1 /\ coherent p2 /\ ambient p1 = ambient p2)
             (fun i => plain_job (fst i) (snd i))) with (i := (e, r)); auto.
    - intros a b (A & B & C). auto.
    - intros a b c (A & B & C) (D & E & F). splits; auto. congruence.
    - intros s1 s2 i Ji (A & B & C). apply plain_outcome; auto.
    - intros s i (C & _ & _). destruct (run_keeps s (fst i) (snd i)) as (K & _ & A & _). splits; auto.
  Qed.

  Lemma ids_of_app t a b : ids_of t (a ++ b) = ids_of t a ++ ids_of t b.
  Proof.
    induction a as [|x a IH]; cbn [app ids_of]; auto.
    destruct x; auto. destruct (String.eqb t table); cbn [app]; congruence.
  Qed.

  (* between the run states s and s' the rows of table t got the next ids, in order *)
  Definition dense (t : string) (s : rstate) (b : list obs) (s' : rstate) : Prop :=
    ids_of t b = Zseq (last_id t s + 1) (length (ids_of t b)) /\
    last_id t s' = last_id t s + Z.of_nat (length (ids_of t b)) /\
    rs_start s' = rs_start s.

  Lemma dense_none t s b s' :
    ids_of t b = [] -> rs_ids s' = rs_ids s -> rs_start s' = rs_start s -> dense t s b s'.
  Proof. unfold dense, last_id. intros -> -> ->. cbn. splits; auto. lia. Qed.

  Lemma dense_app t s b1 s1 b2 s2 : dense t s b1 s1 -> dense t s1 b2 s2 -> dense t s (b1 ++ b2) s2.
  Proof.
    intros (A1 & L1 & S1) (A2 & L2 & S2). unfold dense.
    rewrite ids_of_app, app_length, Zseq_app, <- A1. splits; [f_equal|lia|congruence].
    replace (last_id t s + 1 + Z.of_nat (length (ids_of t b1))) with (last_id t s1 + 1) by lia. exact A2.
  Qed.

  Lemma step_dense e cx p s o p' s' b t : step e cx p s o = (p', Ok (s', b)) -> dense t s b s'.
  Proof.
    intros H. destruct (step_writes e cx p s o) as [_ W]. rewrite H in W. destruct W as (S & Q & _).
    destruct o; try (apply dense_none; auto; apply Q).
    cbn [Isolation.step] in H. injection H as _ <- <-. unfold dense, last_id. cbn [ids_of rs_ids rs_start].
    rewrite assoc_find_set. destruct (String.eqb t table) eqn:E; [|cbn; splits; auto; lia].
    apply String.eqb_eq in E. subst table. cbn. splits; auto.
  Qed.

  Lemma exec_dense e cx t ops : forall p s,
    let r := exec_ops e cx p s ops in dense t s (o_obs (snd r)) (snd (fst r)).
  Proof.
    induction ops as [|o ops IH]; intros p s; cbn zeta; cbn [Isolation.exec_ops].
    - apply dense_none; reflexivity.
    - destruct (step e cx p s o) as [p' [[s' b]|er]] eqn:E; [|apply dense_none; reflexivity].
      specialize (IH p' s'). cbn zeta in IH. destruct (exec_ops e cx p' s' ops) as [[p'' s''] out].
      exact (dense_app _ _ _ _ _ _ (step_dense _ _ _ _ _ _ _ _ t E) IH).
  Qed.

  (* last id of a table according to the continuation file of a job (0: fresh run, or no such table) *)
  Definition cont_last (t : string) (r : recipe) : Z := last_id t (init_rstate (r_cont r)).

  Lemma init_start t cont : start_id t (init_rstate cont) = last_id t (init_rstate cont) + 1.
  Proof.
    destruct cont as [ids|]; [|reflexivity].
    unfold start_id, last_id, init_rstate. cbn [rs_start rs_ids].
    induction ids as [|[k v] ids IH]; cbn [map assoc_find fst snd]; [reflexivity|].
    destruct (String.eqb t k); auto.
  Qed.

  (* Whatever ran before in the process and whatever the application object went through, the ids
     a run gives to the rows of a table are last+1, last+2, ... where last is the table's entry in
     the run's OWN continuation file (0 without one: ids start at 1).  And `target_number (n, t)`: a
     run that ends normally has made at least n rows of t, counted from there. *)
  Theorem run_ids p e r t :
    let out := snd (run p e r) in
    let ids := ids_of t (o_obs out) in
    ids = Zseq (cont_last t r + 1) (length ids) /\
    forall n, r_crit r = CTable t n -> o_err out = None -> n <= Z.of_nat (length ids).
  Proof.
    cbn zeta. unfold Isolation.run, cont_last.
    destruct (pre_execute p e r) as [p1 [u|er]]; [|split; [reflexivity|discriminate]].
    set (cx := mkCtx _ _). set (q := set_rowhist _ _). set (s := init_rstate _).
    destruct (iterate_unroll e cx (r_crit r) (r_ops r) (iter_fuel (r_crit r)) q s) as (k & Ho & _ & F).
    pose proof (exec_dense e cx t (flat k (r_ops r)) q s) as D. cbn zeta in *. rewrite Ho.
    destruct (exec_ops e cx q s _) as [[q' s'] out']. cbn [fst snd] in *. destruct D as (D & L & St).
    split; [exact D|]. intros n Hc Hn. destruct (F Hn) as [a0 Fa]. rewrite Hc in Fa.
    cbn [Isolation.end_of_iteration] in Fa. destruct (last_id t s' =? _); [discriminate|].
    injection Fa as Fa. apply Z.leb_le in Fa. unfold start_id in Fa. rewrite St in Fa.
    pose proof (init_start t (r_cont r)) as I. unfold start_id in I. fold s in I. lia.
  Qed.

  (* A loop in which some measure [m] of (process, run state) goes down with every iteration that
     does not end it uses at most [m] + 1 iterations: fuel beyond that is never touched. *)
  Lemma iterate_stable e cx c body (I : proc -> rstate -> Prop) (m : proc -> rstate -> nat) :
    (forall p s p1 s1 out a,
       I p s -> exec_ops e cx p s body = (p1, s1, out) -> o_err out = None ->
       end_of_iteration c s1 (p_app p1) = (a, Ok false) ->
       I (set_app p1 a) s1 /\ (m (set_app p1 a) s1 < m p s)%nat) ->
    forall f1 f2 p s, I p s -> (m p s < f1)%nat -> (m p s < f2)%nat ->
    iterate f1 e cx c body p s = iterate f2 e cx c body p s.
  Proof.
    intros Step. induction f1 as [|g1 IH]; intros [|g2] p s Hi L1 L2; try lia. cbn [Isolation.iterate].
    destruct (exec_ops e cx p s body) as [[p1 s1] out] eqn:E.
    destruct (o_err out) eqn:Eo; [reflexivity|].
    destruct (end_of_iteration c s1 (p_app p1)) as [a [[|]|er]] eqn:Ee; try reflexivity.
    destruct (Step p s p1 s1 out a Hi E Eo Ee) as [Hi' Lt]. rewrite (IH g2); [reflexivity|exact Hi'|lia..].
  Qed.

  (* every iteration that does not end the loop adds one to rep_count *)
  Lemma iterate_stable_reps e cx n body f1 f2 p s :
    (Z.to_nat (n - a_reps (p_app p) - 1) < f1)%nat -> (Z.to_nat (n - a_reps (p_app p) - 1) < f2)%nat ->
    iterate f1 e cx (CReps n) body p s = iterate f2 e cx (CReps n) body p s.
  Proof.
    apply (iterate_stable e cx (CReps n) body (fun _ _ => True)
             (fun p _ => Z.to_nat (n - a_reps (p_app p) - 1))); [|exact I].
    intros q t q1 t1 out a _ E _ Ee. split; [exact I|].
    destruct (exec_keeps e cx body q t) as [_ A]. rewrite E in A. cbn [fst] in A.
    cbn [Isolation.end_of_iteration] in Ee. injection Ee as <- Ee. apply Z.leb_gt in Ee.
    cbn [set_app p_app a_reps]. rewrite A in Ee |- *. lia.
  Qed.

  (* Iterations a run towards the target (n, t) can still need.  After an iteration rep_count is
     positive and starting_id is the last id seen, so the progress check makes every further one add
     a row.  Only the first iteration of a run may compare the last id with something else - the
     starting_id a reused application object brings along - and need not add a row: one more. *)
  Definition table_rank (t : string) (n : Z) (p : proc) (s : rstate) : nat :=
    Z.to_nat (start_id t s + n - last_id t s - 2) +
    if (if a_reps (p_app p) =? 0 then start_id t s - 1 else a_start (p_app p)) =? last_id t s then 0 else 1.

  Lemma iterate_stable_table e cx t n body f1 f2 p s :
    0 <= a_reps (p_app p) -> (table_rank t n p s < f1)%nat -> (table_rank t n p s < f2)%nat ->
    iterate f1 e cx (CTable t n) body p s = iterate f2 e cx (CTable t n) body p s.
  Proof.
    apply (iterate_stable e cx (CTable t n) body (fun p _ => 0 <= a_reps (p_app p)) (table_rank t n)).
    clear. intros p s p1 s1 out a R0 E _ Ee.
    destruct (exec_keeps e cx body p s) as [_ A]. pose proof (exec_dense e cx t body p s) as D.
    rewrite E in A, D. cbn [fst snd] in A, D. destruct D as (_ & L & St).
    cbn [Isolation.end_of_iteration] in Ee. rewrite A in Ee. unfold table_rank, start_id in *. rewrite St in *.
    set (st := if a_reps (p_app p) =? 0 then _ else _) in *.
    destruct (last_id t s1 =? st) eqn:E1; [discriminate|]. apply Z.eqb_neq in E1.
    injection Ee as <- Ee. apply Z.leb_gt in Ee. cbn [set_app p_app a_reps a_start].
    replace (a_reps (p_app p) + 1 =? 0) with false by (symmetry; apply Z.eqb_neq; lia).
    rewrite Z.eqb_refl. split; [lia|]. destruct (st =? last_id t s) eqn:E2; [apply Z.eqb_eq in E2|]; lia.
  Qed.

  (* The fuel of the loop is never what ends a run: with any larger number of iterations allowed
     the run is exactly the same - for every job, every process state, and every application object
     whose rep_count is not negative (it starts at 0 and only goes up). *)
  Theorem fuel_is_enough extra p e r :
    (e_new_app e = true \/ 0 <= a_reps (p_app p)) ->
    run_with parse_d parse_dt read_file load_plugin (iter_fuel (r_crit r) + extra) p e r = run p e r.
  Proof.
    intros Ha. unfold Isolation.run_with, Isolation.run.
    destruct (pre_execute_writes p e r) as (ms & _ & E).
    destruct (pre_execute p e r) as [p1 [u|er]]; [|reflexivity]. cbn [fst] in E. subst p1.
    assert (Hr : 0 <= a_reps (if e_new_app e then app0 else p_app p))
      by (destruct (e_new_app e); [cbn; lia|destruct Ha; [discriminate|assumption]]).
    unfold iter_fuel. destruct (r_crit r) as [n|t n]; cbn [crit_n].
    - apply iterate_stable_reps; cbn [set_rowhist with_imports p_app]; lia.
    - apply iterate_stable_table; [exact Hr|..]; unfold table_rank; rewrite init_start;
        destruct (_ =? _); lia.
  Qed.

  (* the generators of a run have different contexts, each drawn from the counter in the past *)
  Definition gens_inv (p : proc) (s : rstate) : Prop :=
    forall g g' c i i',
      gen_find g (rs_gens s) = Some (c, i) -> gen_find g' (rs_gens s) = Some (c, i') ->
      c < p_uid p /\ g = g'.

  (* the (context, index) pairs that can still be drawn in the state (p, s): by a generator yet to
     be made, or by an existing one from its next index on *)
  Definition avail (p : proc) (s : rstate) (x : Z * Z) : Prop :=
    p_uid p <= fst x \/ exists g i, gen_find g (rs_gens s) = Some (fst x, i) /\ i <= snd x.

  (* from (p, s) to (p', s') the pairs l were drawn: each was available before and is not after,
     and nothing became available *)
  Definition draws (p : proc) (s : rstate) (l : list (Z * Z)) (p' : proc) (s' : rstate) : Prop :=
    gens_inv p' s' /\ (forall y, avail p' s' y -> avail p s y) /\
    NoDup l /\ forall x, In x l -> avail p s x /\ ~ avail p' s' x.

  Lemma draws_none p s p' s' :
    gens_inv p s -> p_uid p <= p_uid p' -> rs_gens s' = rs_gens s -> draws p s [] p' s'.
  Proof.
    intros Inv Hu Hg. unfold draws, gens_inv, avail. rewrite Hg. splits; [|intros y [L|R]; [left; lia|auto]|constructor|intros x []].
    intros g g' c i i' H H'. destruct (Inv g g' c i i' H H'). split; [lia|assumption].
  Qed.

  Lemma draws_app p s l1 p1 s1 l2 p2 s2 :
    draws p s l1 p1 s1 -> draws p1 s1 l2 p2 s2 -> draws p s (l1 ++ l2) p2 s2.
  Proof.
    intros (_ & Sh1 & N1 & B1) (Inv & Sh2 & N2 & B2). unfold draws. splits; auto.
    - apply NoDup_app_intro; auto. intros x H1 H2. apply (B1 x H1), (B2 x H2).
    - intros x Hx. apply in_app_iff in Hx. destruct Hx as [Hx|Hx].
      + destruct (B1 x Hx). auto.
      + destruct (B2 x Hx). auto.
  Qed.

  (* Slot g draws (c, i): from its generator, or from a new one that takes its context from the
     counter. *)
  Lemma draws_one p p' s g c i :
    gens_inv p s ->
    gen_find g (rs_gens s) = Some (c, i) /\ p_uid p' = p_uid p \/
    gen_find g (rs_gens s) = None /\ c = p_uid p /\ p_uid p' = p_uid p + 1 ->
    draws p s [(c, i)] p' (mkRs (rs_ids s) (rs_states s) (gen_set g (c, i + 1) (rs_gens s)) (rs_start s)).
  Proof.
    intros Inv Hc.
    assert (F1 : c < p_uid p' /\ p_uid p <= p_uid p').
    { destruct Hc as [[G U]|(G & -> & U)]; [destruct (Inv g g c i i G G)|]; lia. }
    assert (F2 : forall g1 i1, gen_find g1 (rs_gens s) = Some (c, i1) -> g1 = g).
    { intros g1 i1 H. destruct Hc as [[G _]|(_ & -> & _)]; [apply (Inv g1 g c i1 i H G)|].
      destruct (Inv g1 g1 _ i1 i1 H H). lia. }
    assert (F3 : forall j, i <= j -> avail p s (c, j)).
    { intros j Hj. destruct Hc as [[G _]|(_ & -> & _)]; [right; exists g, i; auto|left; cbn; lia]. }
    unfold draws, avail, gens_inv. cbn [rs_gens]. splits.
    - intros g1 g2 c1 j1 j2 H1 H2. rewrite gen_find_set in H1, H2.
      destruct (gslot_eqb_spec g1 g) as [->|N1]; destruct (gslot_eqb_spec g2 g) as [->|N2].
      + injection H1 as <- _. split; [lia|reflexivity].
      + injection H1 as <- _. destruct (N2 (F2 g2 j2 H2)).
      + injection H2 as <- _. destruct (N1 (F2 g1 j1 H1)).
      + destruct (Inv g1 g2 c1 j1 j2 H1 H2). split; [lia|assumption].
    - intros [c' j] [L|(g1 & i1 & H & Le)]; cbn [fst snd] in *; [left; cbn; lia|].
      rewrite gen_find_set in H. destruct (gslot_eqb_spec g1 g) as [->|N].
      + injection H as <- <-. apply F3. lia.
      + right. exists g1, i1. auto.
    - repeat constructor. intros [].
    - intros x [<-|[]]. split; [apply F3; lia|].
      intros [L|(g1 & i1 & H & Le)]; cbn [fst snd] in *; [lia|].
      rewrite gen_find_set in H. destruct (gslot_eqb_spec g1 g) as [->|N]; [injection H as <-; lia|].
      exact (N (F2 g1 i1 H)).
  Qed.

  Lemma uid_obs_app a b : uid_obs (a ++ b) = uid_obs a ++ uid_obs b.
  Proof. induction a as [|x a IH]; cbn [app uid_obs]; auto. destruct x; cbn [app]; congruence. Qed.

  Lemma uid_pairs_app a b : uid_pairs (a ++ b) = uid_pairs a ++ uid_pairs b.
  Proof. unfold uid_pairs. rewrite uid_obs_app, map_app. reflexivity. Qed.

  Lemma step_draws e cx p s o p' s' b :
    gens_inv p s -> step e cx p s o = (p', Ok (s', b)) -> draws p s (uid_pairs b) p' s'.
  Proof.
    intros Inv H. destruct (step_keeps e cx p s o) as (_ & U & _).
    destruct (step_writes e cx p s o) as [_ W]. rewrite H in U, W. destruct W as (_ & _ & Q).
    destruct o; try (unfold uid_pairs; rewrite (proj2 Q); apply draws_none; [assumption..|apply Q]).
    cbn [Isolation.step] in H.
    destruct (gen_find g (rs_gens s)) as [[c i]|] eqn:G; injection H as <- <- <-;
      apply draws_one; auto.
  Qed.

  Lemma exec_draws e cx ops : forall p s,
    gens_inv p s ->
    let r := exec_ops e cx p s ops in draws p s (uid_pairs (o_obs (snd r))) (fst (fst r)) (snd (fst r)).
  Proof.
    induction ops as [|o ops IH]; intros p s Inv; cbn zeta; cbn [Isolation.exec_ops].
    - apply draws_none; [exact Inv|apply Z.le_refl|reflexivity].
    - destruct (step_keeps e cx p s o) as (_ & U & _).
      destruct (step e cx p s o) as [p' [[s' b]|er]] eqn:E; [|apply draws_none; auto].
      pose proof (step_draws e cx p s o p' s' b Inv E) as D. specialize (IH p' s' (proj1 D)). cbn zeta in IH.
      destruct (exec_ops e cx p' s' ops) as [[p'' s''] out]. cbn [fst snd o_obs] in *.
      rewrite uid_pairs_app. exact (draws_app _ _ _ _ _ _ _ _ D IH).
  Qed.

  Lemma run_uids p e r :
    let x := run p e r in
    NoDup (uid_pairs (o_obs (snd x))) /\
    (forall c i, In (c, i) (uid_pairs (o_obs (snd x))) -> p_uid p <= c < p_uid (fst x)).
  Proof.
    cbn zeta. unfold Isolation.run. destruct (pre_execute_writes p e r) as (ms & _ & E).
    destruct (pre_execute p e r) as [p1 [u|er]]; cbn [fst snd o_obs] in *;
      [subst p1|split; [constructor|intros c i []]].
    set (cx := mkCtx (effective_version e r) (r_dir r)). set (q := set_rowhist _ _).
    destruct (iterate_unroll e cx (r_crit r) (r_ops r) (iter_fuel (r_crit r)) q (init_rstate (r_cont r)))
      as (k & -> & -> & _).
    assert (Hg : rs_gens (init_rstate (r_cont r)) = []) by (destruct (r_cont r); reflexivity).
    destruct (exec_draws e cx (flat k (r_ops r)) q (init_rstate (r_cont r))) as (_ & _ & N & B).
    { intros g g' c i i' H. rewrite Hg in H. discriminate. }
    split; [exact N|]. intros c i Hin.
    destruct (B _ Hin) as [[L|(g & i0 & H & _)] NA]; [|rewrite Hg in H; discriminate].
    split; [exact L|]. apply Z.nle_gt. intros L'. apply NA. left. exact L'.
  Qed.

  Definition all_uid_pairs (os : list outcome) : list (Z * Z) :=
    flat_map (fun o => uid_pairs (o_obs o)) os.

  Lemma run_seq_uids l : forall p,
    let x := run_seq p l in
    NoDup (all_uid_pairs (snd x)) /\
    (forall c i, In (c, i) (all_uid_pairs (snd x)) -> p_uid p <= c < p_uid (fst x)).
  Proof.
    induction l as [|[e r] l IH]; intros p; cbn zeta; cbn [Isolation.run_seq].
    - split; [constructor|intros c i []].
    - destruct (run_uids p e r) as [N1 B1]. destruct (run_keeps p e r) as (_ & M1 & _).
      destruct (run p e r) as [p1 o]. destruct (IH p1) as [N2 B2].
      pose proof (after_from_keeps l p1) as (_ & M2 & _). unfold Isolation.after_from in M2.
      destruct (run_seq p1 l) as [p2 os]. cbn [fst snd] in *.
      unfold all_uid_pairs in *. cbn [flat_map]. split.
      + apply NoDup_app_intro; auto. intros [c i] H1 H2.
        pose proof (B1 c i H1). pose proof (B2 c i H2). lia.
      + intros c i Hin. apply in_app_iff in Hin. destruct Hin as [Hin|Hin];
          [pose proof (B1 c i Hin)|pose proof (B2 c i Hin)]; lia.
  Qed.

  Definition all_num_uid_pairs (os : list outcome) : list (Z * Z) :=
    flat_map (fun o => num_uid_pairs (o_obs o)) os.

  (* the numeric draws are a selection of all draws, in the same order *)
  Lemma all_num_uid_pairs_filter os :
    let obs := flat_map (fun o => uid_obs (o_obs o)) os in
    all_uid_pairs os = map snd obs /\ all_num_uid_pairs os = map snd (filter is_numeric_slot obs).
  Proof.
    cbn zeta. unfold all_uid_pairs, all_num_uid_pairs, uid_pairs, num_uid_pairs.
    induction os as [|o os [IH1 IH2]]; cbn [flat_map]; [auto|].
    rewrite filter_app, !map_app, IH1, IH2. auto.
  Qed.

  Lemma run_seq_num_uids p l : NoDup (all_num_uid_pairs (snd (run_seq p l))).
  Proof.
    destruct (all_num_uid_pairs_filter (snd (run_seq p l))) as [E ->].
    apply NoDup_map_filter. rewrite <- E. apply run_seq_uids.
  Qed.
End P.

(* The value pipeline of C13 (pipeline_numeric_pair) on distinct (context, index) pairs: the numbers
   the default numeric generators (unique_id, UniqueId.unique_id; small-id or big-id mode, any pid)
   make of them are pairwise distinct.  With run_seq_num_uids: over a whole sequence of runs in one
   process. *)
Lemma num_values_distinct mask nbits big pid (l : list (Z * Z)) vs :
  NoDup l ->
  map (fun ci => num_value mask nbits (default_numeric_tpl big) pid (fst ci) (snd ci) true) l = map Ok vs ->
  NoDup vs.
Proof.
  intros N H. eapply NoDup_of_injective_keys; [exact N| |exact H].
  intros [c i] [c' i'] v _ _ Hv Hv'. cbn [fst snd] in *.
  destruct (pipeline_numeric_pair mask nbits _ _ _ _ _ _ _ _ _ Hv Hv') as [-> ->]. reflexivity.
Qed.
