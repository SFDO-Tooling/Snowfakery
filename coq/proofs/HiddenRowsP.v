(* C09, "a hidden table is computed exactly like a visible one": the rows of EVERY table, hidden ones
   included, are created with dense ids ([IdsP.run_cells] has no visibility premise); only writing differs. *)
From Coq Require Import ZArith List Lia Bool Permutation.
From SFV Require Import Base Interp.
From SFV.P Require Import BaseP InterpP InterpHeapP IdsP.
Import ListNotations. Open Scope Z_scope.

Corollary hidden_rows_created_not_written e stmts c k s0 s T :
  start_ok s0 -> iterations k e stmts c s0 = Ok s -> hidden T = true ->
  Z.of_nat (length (cell_ids T (skipn (length (heap s0)) (heap s)))) = last_id s T - last_id s0 T /\
  forall row, In row (out s) -> fst row <> T.
Proof.
  intros Hs0 H HT. split.
  - destruct (run_cells Hs0 H) as (_ & _ & HD). destruct (HD T) as [Hle HP].
    apply Permutation_length in HP. rewrite Zseq_length in HP. lia.
  - intros row Hr Heq. destruct Hs0 as (_ & _ & _ & Ho).
    destruct (iterations_extends H) as (new & Hnew & Hclean).
    rewrite Ho, app_nil_r in Hnew. rewrite Hnew in Hr.
    rewrite Forall_forall in Hclean. destruct (Hclean row Hr) as [Hvis _]. rewrite Heq, HT in Hvis. discriminate.
Qed.

(* no premise on how [f] looks.  [w <> VSlot n]: the history keeps a forward-reference slot as a plain
   reference, which [hist_attr] leaves out of the fragment *)
Lemma hist_attr_live h cells c f w :
  find_cell (c_table c) (c_id c) cells = Some c ->
  in_history h (c_table c) (c_id c) = true ->
  py_own_attr f || String.eqb f "sql_tablename" || String.eqb f "_data" = false ->
  row_attr c f = Some w -> (forall n, w <> VSlot n) ->
  hist_attr h cells (c_table c) (c_id c) f = Ok w.
Proof.
  intros Hc Hh Hown Hw Hns. unfold hist_attr, row_attr in *.
  destruct (String.eqb f "id"); [injection Hw as <-; reflexivity|].
  rewrite Hown, Hh, Hc, Hw. cbn [negb]. destruct w; try reflexivity. exfalso. eapply Hns. reflexivity.
Qed.

Lemma find_cell_unique l : forall c,
  NoDup (cell_ids (c_table c) l) -> In c l -> find_cell (c_table c) (c_id c) l = Some c.
Proof.
  induction l as [|c0 l IH]; intros c Hnd Hin; [destruct Hin|]. cbn [find_cell].
  destruct Hin as [->|Hin]; [rewrite String.eqb_refl, Z.eqb_refl; reflexivity|].
  unfold cell_ids in Hnd. cbn [filter] in Hnd.
  destruct (String.eqb (c_table c0) (c_table c)); cbn [andb]; [|auto].
  cbn [map] in Hnd. apply NoDup_cons_iff in Hnd. destruct Hnd as [Hnot Hnd].
  destruct (Z.eqb_spec (c_id c0) (c_id c)) as [Ei|_]; [|auto].
  (* a second cell of that table with that id *)
  exfalso. apply Hnot. rewrite Ei. apply in_map, filter_In. split; [exact Hin|apply String.eqb_refl].
Qed.

Theorem fresh_run_lookup_finds_the_row r k s c :
  run_fresh r k = Ok s -> In c (heap s) -> find_cell (c_table c) (c_id c) (heap s) = Some c.
Proof.
  unfold run_fresh. intros H Hin. apply find_cell_unique; [|exact Hin].
  destruct (run_cells (init_start_ok _ _) H) as (_ & _ & HD). destruct (HD (c_table c)) as [_ HP].
  cbn [init_st heap length skipn] in HP.
  eapply Permutation_NoDup; [apply Permutation_sym; exact HP|apply Zseq_NoDup].
Qed.
