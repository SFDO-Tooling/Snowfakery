(* The file written for a state g is described once ([save_shape]); loading it gives [norm g]
   ([load_save_norm]): g with every dict in key order and the row-valued fields gone.  What is
   restored, that a second write reproduces the file, and chains of writes and reads are all read
   off [norm]. *)
From Coq Require Import ZArith List Bool String Ascii.
From SFV Require Import Base Continuation.
From SFV.P Require Import YamlScalarP.
Import ListNotations.
Open Scope string_scope.

Section Smap.
  Context {A : Type}.

  Definition key_le (x y : string * A) : Prop := String.leb (fst x) (fst y) = true.

  Fixpoint lsorted (l : smap A) : Prop :=
    match l with
    | [] => True
    | x :: r => match r with [] => True | y :: _ => key_le x y end /\ lsorted r
    end.

  Lemma insert_sorted (x : string * A) l : lsorted l -> lsorted (insert_key x l).
  Proof.
    induction l as [|y r IH]; cbn [insert_key lsorted]; [tauto|].
    intros [Hy Hr]. destruct (String.leb (fst x) (fst y)) eqn:E.
    - cbn [lsorted]. unfold key_le. tauto.
    - assert (Hyx : key_le y x).
      { unfold key_le. destruct (String.leb_total (fst x) (fst y)) as [H|H]; [congruence|exact H]. }
      specialize (IH Hr). cbn [lsorted]. split; [|exact IH].
      destruct r as [|z r']; cbn [insert_key]; [exact Hyx|].
      destruct (String.leb (fst x) (fst z)); [exact Hyx|exact Hy].
  Qed.

  Lemma sort_sorted (l : smap A) : lsorted (sort_keys l).
  Proof.
    induction l as [|x r IH]; cbn [sort_keys]; [exact I|]. apply insert_sorted, IH.
  Qed.

  Lemma sort_of_sorted (l : smap A) : lsorted l -> sort_keys l = l.
  Proof.
    induction l as [|x r IH]; cbn [sort_keys lsorted]; [reflexivity|].
    intros [Hx Hr]. rewrite (IH Hr). destruct r as [|y r']; cbn [insert_key]; [reflexivity|].
    unfold key_le in Hx. rewrite Hx. reflexivity.
  Qed.

  Lemma sort_idem (l : smap A) : sort_keys (sort_keys l) = sort_keys l.
  Proof. apply sort_of_sorted, sort_sorted. Qed.

  Lemma forallb_insert (p : string * A -> bool) x l :
    forallb p (insert_key x l) = p x && forallb p l.
  Proof.
    induction l as [|y r IH]; cbn [insert_key forallb]; [reflexivity|].
    destruct (String.leb (fst x) (fst y)); cbn [forallb]; [reflexivity|].
    rewrite IH. destruct (p x), (p y); reflexivity.
  Qed.

  Lemma forallb_sort (p : string * A -> bool) l : forallb p (sort_keys l) = forallb p l.
  Proof.
    induction l as [|x r IH]; cbn [sort_keys forallb]; [reflexivity|].
    rewrite forallb_insert, IH. reflexivity.
  Qed.

  Lemma forallb_lookup (p : string * A -> bool) (m : smap A) k v :
    forallb p m = true -> lookup k m = Some v -> p (k, v) = true.
  Proof.
    induction m as [|[k' v'] r IH]; cbn [forallb lookup]; [discriminate|].
    intros H. apply andb_prop in H as [H1 H2].
    destruct (String.eqb k k') eqn:E; [|now apply IH].
    apply String.eqb_eq in E. subst. now intros [= ->].
  Qed.

  (* the test [nodup_keys] makes on each key *)
  Lemma fresh_key k (m : smap A) :
    existsb (fun kv => String.eqb k (fst kv)) m = if lookup k m then true else false.
  Proof.
    induction m as [|[k' v] r IH]; cbn [existsb lookup fst]; [reflexivity|].
    destruct (String.eqb k k'); [reflexivity|exact IH].
  Qed.

  (* a binding moves only past strictly smaller keys, so every key is found where it was *)
  Lemma lookup_insert (x : string * A) l k : lookup k (insert_key x l) = lookup k (x :: l).
  Proof.
    destruct x as [kx vx].
    induction l as [|[ky vy] r IH]; cbn [insert_key fst]; [reflexivity|].
    destruct (String.leb kx ky) eqn:L; [reflexivity|]. cbn [lookup] in *. rewrite IH.
    destruct (String.eqb k ky) eqn:Ey; [|reflexivity].
    destruct (String.eqb k kx) eqn:Ex; [|reflexivity].
    apply String.eqb_eq in Ex, Ey. subst. destruct (String.leb_total ky ky); congruence.
  Qed.

  Lemma lookup_sort (m : smap A) k : lookup k (sort_keys m) = lookup k m.
  Proof.
    induction m as [|[k' v] r IH]; cbn [sort_keys]; [reflexivity|].
    rewrite lookup_insert. cbn [lookup]. now rewrite IH.
  Qed.

  Lemma lookup_filter (p : string * A -> bool) (m : smap A) :
    nodup_keys m = true ->
    forall k, lookup k (filter p m) = match lookup k m with
                                      | Some v => if p (k, v) then Some v else None
                                      | None => None
                                      end.
  Proof.
    induction m as [|[k' v] r IH]; cbn [nodup_keys filter lookup]; [reflexivity|].
    intros H k. apply andb_prop in H as [Hk Hr]. rewrite fresh_key in Hk. specialize (IH Hr).
    destruct (String.eqb k k') eqn:E.
    - apply String.eqb_eq in E. subst k'. destruct (p (k, v)).
      + cbn [lookup]. now rewrite String.eqb_refl.
      + rewrite IH. now destruct (lookup k r).
    - destruct (p (k', v)); [cbn [lookup]; rewrite E|]; apply IH.
  Qed.
End Smap.

Lemma filter_all {A} (p : A -> bool) (l : list A) : forallb p l = true -> filter p l = l.
Proof.
  induction l as [|x r IH]; cbn [forallb filter]; [reflexivity|].
  intros H. apply andb_prop in H as [Hx Hr]. now rewrite Hx, (IH Hr).
Qed.

Lemma forallb_filter {A} (p : A -> bool) (l : list A) : forallb p (filter p l) = true.
Proof. apply forallb_forall. intros x Hx. now apply filter_In in Hx. Qed.

Lemma insert_map_vals {A B} (f : A -> B) (x : string * A) l :
  insert_key (fst x, f (snd x)) (map_vals f l) = map_vals f (insert_key x l).
Proof.
  induction l as [|y r IH]; cbn [insert_key map_vals map fst snd]; [reflexivity|].
  destruct (String.leb (fst x) (fst y)); cbn [map fst snd]; [reflexivity|].
  f_equal. exact IH.
Qed.

Lemma sort_map_vals {A B} (f : A -> B) l : sort_keys (map_vals f l) = map_vals f (sort_keys l).
Proof.
  induction l as [|x r IH]; cbn [sort_keys map_vals map]; [reflexivity|].
  fold (map_vals f r). rewrite IH. apply insert_map_vals.
Qed.

Lemma lookup_map_vals {A B} (f : A -> B) (m : smap A) k :
  lookup k (map_vals f m) = option_map f (lookup k m).
Proof.
  induction m as [|[k' v] r IH]; cbn [map_vals map lookup fst snd option_map]; [reflexivity|].
  destruct (String.eqb k k'); [reflexivity|exact IH].
Qed.

Lemma map_vals_map_vals {A B C} (f : A -> B) (g : B -> C) (m : smap A) :
  map_vals g (map_vals f m) = map_vals (fun x => g (f x)) m.
Proof. unfold map_vals. rewrite map_map. reflexivity. Qed.

Lemma map_vals_ext {A B} (f g : A -> B) (m : smap A) :
  (forall x, f x = g x) -> map_vals f m = map_vals g m.
Proof. intros H. unfold map_vals. apply map_ext. intros [k v]. cbn [fst snd]. rewrite H. reflexivity. Qed.

Lemma map_vals_keys {A B} (f : A -> B) (m : smap A) : map fst (map_vals f m) = map fst m.
Proof. unfold map_vals. rewrite map_map. reflexivity. Qed.

Lemma sort_tree_map m : sort_tree (TMap m) = TMap (sort_keys (map_vals sort_tree m)).
Proof.
  cbn [sort_tree]. f_equal. f_equal. unfold map_vals. apply map_ext. intros [k v]. reflexivity.
Qed.

Lemma sort_scalars {A} (f : A -> value) (m : smap A) :
  sort_tree (TMap (map_vals (fun x => TVal (f x)) m)) = TMap (map_vals (fun x => TVal (f x)) (sort_keys m)).
Proof.
  rewrite sort_tree_map, map_vals_map_vals. cbn [sort_tree]. rewrite sort_map_vals. reflexivity.
Qed.

(* a row as it appears in the file *)
Definition srow (r : row) : tree :=
  TMap [("_tablename", TVal (VStr (r_table r)));
        ("_values", TMap (map_vals TVal (sort_keys (filter nonrow (r_values r)))))].

Definition sdep (d : dep) : tree :=
  TMap [("field_name", TVal (VStr (d_field d)));
        ("table_name_from", TVal (VStr (d_from d)));
        ("table_name_to", TVal (VStr (d_to d)))].

Definition shape (idm deps nat nicks tables today : tree) : tree :=
  TMap [("id_manager", idm); ("intertable_dependencies", deps); ("nicknames_and_tables", nat);
        ("persistent_nicknames", nicks); ("persistent_objects_by_table", tables); ("today", today)].

Lemma sort_row_state r : sort_tree (row_state r) = srow r.
Proof.
  unfold row_state, srow. fold nonrow. rewrite sort_tree_map. cbn [map_vals map fst snd].
  now rewrite (sort_scalars (fun v => v)).
Qed.

Lemma sort_rows_state m : sort_tree (rows_state m) = TMap (map_vals srow (sort_keys m)).
Proof.
  unfold rows_state. rewrite sort_tree_map, map_vals_map_vals.
  rewrite (map_vals_ext _ srow) by apply sort_row_state.
  now rewrite sort_map_vals.
Qed.

Lemma sort_dep_state d : sort_tree (dep_state d) = sdep d.
Proof. reflexivity. Qed.

Lemma sort_idm_state ids : sort_tree (idm_state ids) = idm_state (sort_keys ids).
Proof.
  unfold idm_state. rewrite sort_tree_map. cbn [map_vals map fst snd].
  now rewrite (sort_scalars (fun z => VInt z)).
Qed.

(* the six keys of Globals.__getstate__ in sorted order *)
Lemma sort_getstate (a b c d e f : tree) :
  sort_tree (TMap [("persistent_nicknames", a); ("persistent_objects_by_table", b); ("id_manager", c);
                   ("today", d); ("nicknames_and_tables", e); ("intertable_dependencies", f)]) =
  shape (sort_tree c) (sort_tree f) (sort_tree e) (sort_tree a) (sort_tree b) (sort_tree d).
Proof. reflexivity. Qed.

Lemma save_shape g :
  save g = shape (idm_state (sort_keys (g_last_used g)))
                 (TList (map sdep (g_deps g)))
                 (TMap (map_vals (fun s => TVal (VStr s)) (sort_keys (g_nat g))))
                 (TMap (map_vals srow (sort_keys (g_nicks g))))
                 (TMap (map_vals srow (sort_keys (g_tables g))))
                 (TVal (g_today g)).
Proof.
  unfold save, getstate. rewrite sort_getstate. f_equal.
  - apply sort_idm_state.
  - cbn [sort_tree]. now rewrite map_map, (map_ext _ _ sort_dep_state).
  - apply (sort_scalars (fun s => VStr s)).
  - apply sort_rows_state.
  - apply sort_rows_state.
Qed.

Definition norm_row (r : row) : row :=
  mkRow (r_table r) (sort_keys (filter nonrow (r_values r))).

Definition norm (g : globals) : globals :=
  let ids := sort_keys (g_last_used g) in
  let nat := sort_keys (g_nat g) in
  mkGlobals ids (map_vals (fun z => z + 1) ids)
            (map_vals norm_row (sort_keys (g_nicks g)))
            (map_vals norm_row (sort_keys (g_tables g)))
            nat (g_today g) (dedup (g_deps g)) (mkTr nat ids) [].

Lemma mapM_map {A B C} (f : B -> result C) (g : A -> B) (h : A -> C) (l : list A) :
  (forall x, f (g x) = Ok (h x)) -> mapM f (map g l) = Ok (map h l).
Proof.
  intro H. induction l as [|x r IH]; cbn [map mapM]; [reflexivity|]. now rewrite H, IH.
Qed.

Lemma mapM_entries {A} (f : string * tree -> result (string * A)) (g : A -> tree) (m : smap A) :
  (forall k a, f (k, g a) = Ok (k, a)) -> mapM f (map_vals g m) = Ok m.
Proof.
  intro H. unfold map_vals. rewrite (mapM_map f _ (fun kv => kv)); [now rewrite map_id|].
  intros [k a]. apply H.
Qed.

Lemma load_srow r : load_row (srow r) = Ok (norm_row r).
Proof.
  unfold srow, norm_row.
  transitivity (do vals <- mapM load_value_entry
                                (map_vals TVal (sort_keys (filter nonrow (r_values r))));
                Ok (mkRow (r_table r) vals)); [reflexivity|].
  now rewrite mapM_entries.
Qed.

Lemma load_rows_srows m : load_rows (TMap (map_vals srow m)) = Ok (map_vals norm_row m).
Proof.
  apply (mapM_map load_row_entry). intros [k r]. unfold load_row_entry. cbn [fst snd].
  now rewrite load_srow.
Qed.

Lemma load_tables_srows m : load_tables (Some (TMap (map_vals srow m))) = Ok (map_vals norm_row m).
Proof. destruct m as [|x r]; [reflexivity|]. apply (load_rows_srows (x :: r)). Qed.

Lemma load_idm_state ids : load_idm (idm_state ids) = Ok ids.
Proof. now apply (mapM_entries load_id_entry (fun z => TVal (VInt z))). Qed.

Lemma load_sdep d : load_dep (sdep d) = Ok d.
Proof. destruct d. reflexivity. Qed.

Lemma load_shape idm deps nat nicks tables today :
  load (shape idm (TList deps) nat nicks tables today) =
  (do nk <- load_rows nicks;
   do ids <- load_idm idm;
   do ds <- (do ds0 <- mapM load_dep deps; Ok (dedup ds0));
   do td <- as_value today;
   do tb <- load_tables (Some tables);
   do nt <- load_nat nat;
   Ok (mkGlobals ids (map_vals (fun z => z + 1) ids) nk tb nt td ds (mkTr nt ids) [])).
Proof. reflexivity. Qed.

Theorem load_save_norm g : load (save g) = Ok (norm g).
Proof.
  rewrite save_shape, load_shape.
  rewrite load_rows_srows, load_idm_state, load_tables_srows.
  rewrite (mapM_map load_dep sdep (fun d => d)), map_id by apply load_sdep.
  cbn [bind as_value load_nat]. now rewrite mapM_entries.
Qed.

Lemma norm_row_fields r f :
  nodup_keys (r_values r) = true -> lookup f (r_values (norm_row r)) = field_after r f.
Proof.
  intros H. unfold norm_row, field_after. cbn [r_values].
  rewrite lookup_sort, lookup_filter by exact H.
  destruct (lookup f (r_values r)) as [v|]; [|reflexivity].
  unfold nonrow. cbn [snd]. now destruct (is_row v).
Qed.

Lemma rows_restored_norm (m : smap row) :
  forallb (fun kv => nodup_keys (r_values (snd kv))) m = true ->
  rows_restored field_after m (map_vals norm_row (sort_keys m)).
Proof.
  intros H k. rewrite lookup_map_vals, lookup_sort.
  destruct (lookup k m) as [r|] eqn:L; cbn [option_map]; [|reflexivity].
  exists (norm_row r). split; [reflexivity|]. split; [reflexivity|].
  intros f. apply norm_row_fields.
  exact (forallb_lookup (fun kv => nodup_keys (r_values (snd kv))) m k r H L).
Qed.

(* an OrderedSet holds no duplicates, so re-adding its elements changes nothing *)
Lemma dedup_nodup l : nodup_deps l = true -> dedup l = l.
Proof.
  induction l as [|d r IH]; cbn [dedup nodup_deps]; [reflexivity|].
  intros H. apply andb_prop in H as [Hd Hr].
  rewrite (IH Hr). f_equal. apply filter_all.
  apply negb_true_iff in Hd. clear - Hd. induction r as [|y r IH]; [reflexivity|].
  cbn [existsb forallb] in *. apply orb_false_iff in Hd as [H1 H2]. now rewrite H1, IH.
Qed.

Theorem norm_restored_scalars g : wf g = true -> restored_scalars g (norm g).
Proof.
  unfold wf. intro W. apply andb_prop in W as [W Ht]. apply andb_prop in W as [W Hn].
  apply andb_prop in W as [_ Hd].
  constructor; cbn [norm g_last_used g_start_ids g_nicks g_tables g_nat g_today
                         g_deps g_transients tr_slots tr_orig].
  - exact (lookup_sort _).
  - intros t. now rewrite lookup_map_vals, lookup_sort.
  - apply rows_restored_norm, Hn.
  - apply rows_restored_norm, Ht.
  - exact (lookup_sort _).
  - reflexivity.
  - apply dedup_nodup, Hd.
  - exact (lookup_sort _).
  - exact (lookup_sort _).
Qed.

Lemma row_ok_field_after r f : row_ok r = true -> field_after r f = field_full r f.
Proof.
  unfold row_ok, field_after, field_full. intros H.
  destruct (lookup f (r_values r)) as [v|] eqn:L; [|reflexivity].
  pose proof (forallb_lookup (fun kv => representable_value (snd kv)) _ f v H L) as P.
  cbn [snd] in P. destruct v; try reflexivity; discriminate.
Qed.

Lemma rows_restored_full (m m' : smap row) :
  forallb (fun kv => row_ok (snd kv)) m = true ->
  rows_restored field_after m m' -> rows_restored field_full m m'.
Proof.
  intros Hok H k. specialize (H k). destruct (lookup k m) as [r|] eqn:L; [|exact H].
  destruct H as (r' & H1 & H2 & H3). exists r'. split; [exact H1|]. split; [exact H2|].
  intros f. rewrite H3. apply row_ok_field_after.
  exact (forallb_lookup (fun kv => row_ok (snd kv)) m k r Hok L).
Qed.

Theorem norm_restored g : snapshot_ok g = true -> restored g (norm g).
Proof.
  unfold snapshot_ok. intro S. do 3 (apply andb_prop in S as [S ?]).
  destruct (norm_restored_scalars g S). constructor; try assumption; now apply rows_restored_full.
Qed.

(* finding K1: a row-valued field of a row kept under a nickname is not there after loading, so
   "every field restored" fails for every well-formed state that has one *)
Lemma row_field_lost g k r f t i :
  wf g = true -> lookup k (g_nicks g) = Some r -> lookup f (r_values r) = Some (VRow t i) ->
  ~ restored g (norm g).
Proof.
  intros W L F R. apply rs_nicks in R. apply norm_restored_scalars, rs_nicks in W.
  specialize (R k). specialize (W k). rewrite L in R, W.
  destruct R as (r1 & E1 & _ & R), W as (r2 & E2 & _ & W). rewrite E1 in E2. injection E2 as <-.
  specialize (R f). rewrite W in R. unfold field_full, field_after in R. rewrite F in R. discriminate R.
Qed.

Lemma srow_norm_row r : srow (norm_row r) = srow r.
Proof.
  unfold srow, norm_row. cbn [r_table r_values].
  rewrite (filter_all nonrow (sort_keys (filter nonrow (r_values r)))).
  - now rewrite sort_idem.
  - rewrite forallb_sort. apply forallb_filter.
Qed.

Lemma srows_norm (m : smap row) :
  map_vals srow (sort_keys (map_vals norm_row (sort_keys m))) = map_vals srow (sort_keys m).
Proof.
  rewrite sort_map_vals, sort_idem, map_vals_map_vals.
  apply map_vals_ext. apply srow_norm_row.
Qed.

Theorem save_norm g : nodup_deps (g_deps g) = true -> save (norm g) = save g.
Proof.
  intros Hd. rewrite !save_shape.
  cbn [norm g_last_used g_nicks g_tables g_nat g_today g_deps].
  now rewrite !srows_norm, (dedup_nodup _ Hd), !sort_idem.
Qed.

Lemma representable_map_vals {A} (f : A -> tree) (m : smap A) :
  representable (TMap (map_vals f m)) = forallb (fun kv => representable (f (snd kv))) m.
Proof.
  cbn [representable]. induction m as [|[k v] r IH]; cbn [map_vals map forallb fst snd]; [reflexivity|].
  fold (map_vals f r). now rewrite IH.
Qed.

Lemma representable_scalars {A} (f : A -> value) (m : smap A) :
  (forall a, representable_value (f a) = true) ->
  representable (TMap (map_vals (fun a => TVal (f a)) m)) = true.
Proof.
  intro H. rewrite representable_map_vals. apply forallb_forall. intros kv _. apply H.
Qed.

Lemma representable_srow r : representable (srow r) = row_dumpable r.
Proof.
  transitivity (representable (TMap (map_vals TVal (sort_keys (filter nonrow (r_values r))))) && true);
    [reflexivity|].
  rewrite andb_true_r, representable_map_vals. apply forallb_sort.
Qed.

Lemma representable_srows (m : smap row) :
  representable (TMap (map_vals srow (sort_keys m))) = forallb (fun kv => row_dumpable (snd kv)) m.
Proof.
  rewrite representable_map_vals, forallb_sort.
  induction m as [|[k r] m IH]; cbn [forallb snd]; [reflexivity|]. now rewrite IH, representable_srow.
Qed.

Lemma representable_idm_state ids : representable (idm_state ids) = true.
Proof. apply andb_true_intro. split; [|reflexivity]. now apply (representable_scalars VInt). Qed.

Lemma representable_sdeps ds : representable (TList (map sdep ds)) = true.
Proof. apply forallb_forall. intros x Hx. now apply in_map_iff in Hx as (d & <- & _). Qed.

Lemma representable_shape a b c d e f :
  representable (shape a b c d e f) =
  representable a && (representable b && (representable c && (representable d &&
  (representable e && (representable f && true))))).
Proof. reflexivity. Qed.

(* counters, references and nickname bindings are ints and strs: only today and the rows matter *)
Theorem representable_save g :
  representable (save g) =
  representable_value (g_today g) &&
  forallb (fun kv => row_dumpable (snd kv)) (g_nicks g) &&
  forallb (fun kv => row_dumpable (snd kv)) (g_tables g).
Proof.
  rewrite save_shape, representable_shape, !representable_srows, representable_idm_state, representable_sdeps.
  rewrite (representable_scalars VStr) by reflexivity. cbn [representable andb].
  now destruct (representable_value _), (forallb _ (g_nicks g)), (forallb _ (g_tables g)).
Qed.

Lemma rows_ok_dumpable (m : smap row) :
  forallb (fun kv => row_ok (snd kv)) m = true -> forallb (fun kv => row_dumpable (snd kv)) m = true.
Proof.
  rewrite !forallb_forall. intros H kv Hin. specialize (H kv Hin).
  unfold row_ok in H. rewrite forallb_forall in H.
  apply forallb_forall. intros x Hx. apply filter_In in Hx as [Hx _]. now apply H.
Qed.

Theorem dump_total g : snapshot_ok g = true -> dump_check g = Ok (save g).
Proof.
  unfold snapshot_ok. intro S. apply andb_prop in S as [S Hb]. apply andb_prop in S as [S Hn].
  apply andb_prop in S as [_ Ht].
  unfold dump_check. now rewrite representable_save, Ht, !rows_ok_dumpable.
Qed.

Lemma norm_deps g : nodup_deps (g_deps g) = true -> g_deps (norm g) = g_deps g.
Proof. apply dedup_nodup. Qed.

Lemma dump_check_norm g : nodup_deps (g_deps g) = true -> dump_check (norm g) = dump_check g.
Proof. intro Hd. unfold dump_check. now rewrite save_norm. Qed.

(* the file of g and the file of [norm g] are the same, so they are read back as the same state *)
Lemma norm_idem g : nodup_deps (g_deps g) = true -> norm (norm g) = norm g.
Proof.
  intro Hd. enough (E : Ok (norm (norm g)) = Ok (norm g)) by congruence.
  now rewrite <- !load_save_norm, save_norm.
Qed.

Lemma chain_step n g : chain (S n) g = do _ <- dump_check g; chain n (norm g).
Proof.
  cbn [chain]. unfold dump_check. destruct (representable (save g)); [|reflexivity].
  cbn [bind]. now rewrite load_save_norm.
Qed.

(* the first step leads to [norm g]; every further step writes the same file and reads the same state *)
Theorem chain_S n : forall g,
  nodup_deps (g_deps g) = true -> chain (S n) g = do _ <- dump_check g; Ok (norm g).
Proof.
  induction n as [|n IH]; intros g Hd; rewrite chain_step; [reflexivity|].
  rewrite IH by now rewrite norm_deps.
  rewrite (dump_check_norm g Hd), (norm_idem g Hd). destruct (dump_check g); reflexivity.
Qed.

Section YamlText.
  Variable text : Type.
  Variable yaml_dump : tree -> option text.
  Variable yaml_load : text -> option tree.
  (* trees the law is claimed for (e.g. every opaque token stands for a Python value) *)
  Variable good : tree -> bool.

  (* the round-trip law of the text layer: what was written is read back, scalar by scalar with
     its type, mapping by mapping in file order *)
  Hypothesis yaml_roundtrip :
    forall t, representable (sort_tree t) = true -> good (sort_tree t) = true ->
              exists txt, yaml_dump (sort_tree t) = Some txt /\ yaml_load txt = Some (sort_tree t).

  Local Notation write_file := (write_file text yaml_dump).
  Local Notation read_file := (read_file text yaml_load).
  Local Notation rewrite_chain := (rewrite_chain text yaml_dump yaml_load).

  Lemma write_file_ok g txt :
    write_file g = Ok txt -> yaml_dump (save g) = Some txt /\ representable (save g) = true.
  Proof.
    unfold write_file, dump_check. destruct (representable (save g)); [|discriminate].
    cbn [bind]. destruct (yaml_dump (save g)); [|discriminate]. intros [= <-]. auto.
  Qed.

  Lemma read_written g txt :
    good (save g) = true -> write_file g = Ok txt -> read_file txt = Ok (norm g).
  Proof.
    intros G W. apply write_file_ok in W as [D R]. unfold read_file, save in *.
    destruct (yaml_roundtrip _ R G) as (txt' & D' & L).
    rewrite D in D'. injection D' as <-. rewrite L. apply load_save_norm.
  Qed.

  Theorem write_total g :
    snapshot_ok g = true -> good (save g) = true -> exists txt, write_file g = Ok txt.
  Proof.
    intros S G. pose proof (dump_total g S) as D. unfold write_file. rewrite D. cbn [bind].
    unfold dump_check in D. destruct (representable (save g)) eqn:R; [|discriminate]. unfold save in *.
    destruct (yaml_roundtrip _ R G) as (txt & -> & _). now exists txt.
  Qed.

  Theorem read_write g :
    snapshot_ok g = true -> good (save g) = true ->
    exists txt g', write_file g = Ok txt /\ read_file txt = Ok g' /\ restored g g'.
  Proof.
    intros S G. destruct (write_total g S G) as (txt & W).
    exists txt, (norm g). auto using read_written, norm_restored.
  Qed.

  Lemma write_norm g : nodup_deps (g_deps g) = true -> write_file (norm g) = write_file g.
  Proof. intro Hd. unfold write_file. now rewrite dump_check_norm. Qed.

  Theorem rewrite_chain_same n : forall g txt,
    nodup_deps (g_deps g) = true -> good (save g) = true ->
    write_file g = Ok txt -> rewrite_chain n txt = Ok txt.
  Proof.
    induction n as [|n IH]; intros g txt Hd G Hw; cbn [rewrite_chain]; [reflexivity|].
    rewrite (read_written g txt G Hw). cbn [bind].
    rewrite <- (write_norm g Hd) in Hw. rewrite Hw. cbn [bind].
    apply (IH (norm g)); [now rewrite norm_deps|now rewrite save_norm|exact Hw].
  Qed.
End YamlText.

Definition Forall_all {A} {P : A -> Prop} (f : forall x, P x) : forall l, Forall P l :=
  fix go l := match l with [] => Forall_nil P | x :: r => Forall_cons x (f x) (go r) end.

Section TreeInd.
  Variable P : tree -> Prop.
  Hypothesis Hv : forall v, P (TVal v).
  Hypothesis Hl : forall l, Forall P l -> P (TList l).
  Hypothesis Hm : forall m, Forall (fun kv => P (snd kv)) m -> P (TMap m).

  Fixpoint tree_ind' (t : tree) : P t :=
    match t with
    | TVal v => Hv v
    | TList l => Hl l (Forall_all tree_ind' l)
    | TMap m => Hm m (Forall_all (fun kv => tree_ind' (snd kv)) m)
    end.
End TreeInd.

Section NTreeInd.
  Variable P : ntree -> Prop.
  Hypothesis Hs : forall s, P (NS s).
  Hypothesis Hl : forall l, Forall P l -> P (NL l).
  Hypothesis Hm : forall m, Forall (fun kv => P (snd kv)) m -> P (NM m).

  Fixpoint ntree_ind' (t : ntree) : P t :=
    match t with
    | NS s => Hs s
    | NL l => Hl l (Forall_all ntree_ind' l)
    | NM m => Hm m (Forall_all (fun kv => ntree_ind' (snd kv)) m)
    end.
End NTreeInd.

(* the list loops of represent_tree / construct_tree as ordinary functions *)
Fixpoint opt_all {A} (l : list (option A)) : option (list A) :=
  match l with
  | [] => Some []
  | x :: r => match x, opt_all r with Some a, Some b => Some (a :: b) | _, _ => None end
  end.

Definition is_some {A} (o : option A) : bool := if o then true else false.

Lemma is_some_option_map {A B} (f : A -> B) o : is_some (option_map f o) = is_some o.
Proof. now destruct o. Qed.

Lemma is_some_opt_all {A B} (f : A -> option B) (p : A -> bool) (l : list A) :
  Forall (fun x => is_some (f x) = p x) l -> is_some (opt_all (map f l)) = forallb p l.
Proof.
  induction 1 as [|x r Hx _ IH]; cbn [map opt_all forallb]; [reflexivity|].
  rewrite <- Hx, <- IH. now destruct (f x), (opt_all (map f r)).
Qed.

Lemma opt_all_map_inv {A B} (f : A -> option B) (g : B -> option A) (ok : A -> bool) (l : list A) :
  Forall (fun x => forall y, ok x = true -> f x = Some y -> g y = Some x) l -> forallb ok l = true ->
  forall ys, opt_all (map f l) = Some ys -> opt_all (map g ys) = Some l.
Proof.
  induction 1 as [|x r Hx _ IH]; cbn [forallb map opt_all]; intros Hok ys E.
  - now injection E as <-.
  - apply andb_prop in Hok as [Hx' Hr]. destruct (f x) as [y|]; [|discriminate].
    destruct (opt_all (map f r)) as [ys'|]; [|discriminate]. injection E as <-.
    cbn [map opt_all]. now rewrite (Hx y Hx' eq_refl), (IH Hr ys' eq_refl).
Qed.

Section YamlModelP.
  Variable float_text : string -> string.
  Variable date_text : Z -> string.
  Variable datetime_text : Z -> option Z -> string.
  Variable float_read : string -> option string.
  Variable timestamp_read : string -> option value.
  Variable decimal_read : string -> option string.

  Local Notation represent_value := (represent_value float_text date_text datetime_text).
  Local Notation represent_tree := (represent_tree float_text date_text datetime_text).
  Local Notation construct_scalar := (construct_scalar float_read timestamp_read decimal_read).
  Local Notation construct_tree := (construct_tree float_read timestamp_read decimal_read).
  Local Notation key_of := (key_of float_read timestamp_read decimal_read).

  Lemma represent_tree_list l :
    represent_tree (TList l) = option_map NL (opt_all (map represent_tree l)).
  Proof.
    cbn [Continuation.represent_tree]. f_equal.
    induction l as [|x r IH]; cbn [map opt_all]; [reflexivity|]. now rewrite IH.
  Qed.

  Lemma represent_tree_map m :
    represent_tree (TMap m) =
    option_map NM (opt_all (map (fun kv => option_map (fun a => (mkSN TgStr (fst kv), a)) (represent_tree (snd kv))) m)).
  Proof.
    cbn [Continuation.represent_tree]. f_equal.
    induction m as [|[k x] r IH]; cbn [map opt_all fst snd]; [reflexivity|]. rewrite IH.
    destruct (represent_tree x); reflexivity.
  Qed.

  Lemma construct_tree_list l :
    construct_tree (NL l) = option_map TList (opt_all (map construct_tree l)).
  Proof.
    cbn [Continuation.construct_tree]. f_equal.
    induction l as [|x r IH]; cbn [map opt_all]; [reflexivity|]. now rewrite IH.
  Qed.

  Lemma construct_tree_map m :
    construct_tree (NM m) =
    option_map TMap (opt_all (map (fun kv => match key_of (fst kv), construct_tree (snd kv) with
                                             | Some k, Some a => Some (k, a)
                                             | _, _ => None
                                             end) m)).
  Proof.
    cbn [Continuation.construct_tree]. f_equal.
    induction m as [|[k x] r IH]; cbn [map opt_all fst snd]; [reflexivity|]. rewrite IH.
    destruct (key_of k); [|reflexivity]. destruct (construct_tree x); reflexivity.
  Qed.

  Lemma represent_tree_defined t : is_some (represent_tree t) = representable t.
  Proof.
    induction t as [v|l IH|m IH] using tree_ind'; cbn [representable].
    - now destruct v.
    - rewrite represent_tree_list, is_some_option_map. now apply is_some_opt_all.
    - rewrite represent_tree_map, is_some_option_map. apply is_some_opt_all.
      refine (Forall_impl _ _ IH).
      intros [k x] H. cbn [fst snd] in *. now rewrite is_some_option_map.
  Qed.

  (* tokens of the opaque kinds that stand for a Python value *)
  Variable token_ok : value -> bool.
  Local Notation tokens_ok := (tokens_ok token_ok).

  Hypothesis codec_roundtrip :
    codec_law float_text date_text datetime_text float_read timestamp_read decimal_read token_ok.

  Lemma construct_represent_value v n :
    implb (opaque_value v) (token_ok v) = true ->
    represent_value v = Some n -> construct_scalar n = Some v.
  Proof.
    intros Hok R. destruct (opaque_value v) eqn:O; [now apply codec_roundtrip|].
    destruct v; try discriminate O; try discriminate R;
      injection R as <-; unfold Continuation.construct_scalar; cbn [sn_tag sn_text].
    - reflexivity.
    - now destruct b.
    - now rewrite construct_int_text.
    - reflexivity.
  Qed.

  Theorem construct_represent t : forall n,
    tokens_ok t = true -> represent_tree t = Some n -> construct_tree n = Some t.
  Proof.
    induction t as [v|l IH|m IH] using tree_ind'; intros n Hok R.
    - cbn [Continuation.represent_tree] in R. destruct (represent_value v) as [s|] eqn:E; [|discriminate].
      injection R as <-. cbn [Continuation.construct_tree].
      now rewrite (construct_represent_value v s Hok E).
    - rewrite represent_tree_list in R.
      destruct (opt_all (map represent_tree l)) as [ns|] eqn:E; [|discriminate]. injection R as <-.
      now rewrite construct_tree_list, (opt_all_map_inv _ _ _ l IH Hok ns E).
    - rewrite represent_tree_map in R.
      destruct (opt_all (map _ m)) as [ns|] eqn:E; [|discriminate]. injection R as <-.
      rewrite construct_tree_map. erewrite opt_all_map_inv; [reflexivity| |exact Hok|exact E].
      (* a key is a str node, read back by construct_yaml_str *)
      refine (Forall_impl _ _ IH).
      intros [k x] H [k' y] Hx Hy. cbn [fst snd] in *.
      destruct (represent_tree x) as [a|]; [|discriminate]. injection Hy as <- <-.
      unfold Continuation.key_of, Continuation.construct_scalar. cbn [sn_tag sn_text].
      now rewrite (H a Hx eq_refl).
  Qed.

  Variable resolve : string -> ytag.
  Variable default_tag : ytag.
  Variable analyze : string -> analysis.
  Variable simple_key : string -> bool.

  Local Notation present := (present resolve default_tag analyze simple_key).
  Local Notation compose := (compose resolve default_tag).

  Theorem compose_present n : compose (present n) = n.
  Proof.
    induction n as [s|l IH|m IH] using ntree_ind'; cbn [Continuation.present Continuation.compose].
    - now rewrite compose_emit.
    - rewrite map_map, (map_ext_Forall _ (fun x => x) IH). now rewrite map_id.
    - rewrite map_map. erewrite map_ext_Forall; [now rewrite map_id|].
      refine (Forall_impl _ _ IH).
      intros [k x] H. cbn [snd] in H. now rewrite compose_emit, H.
  Qed.

  Variable text : Type.
  Variable emit_chars : ptree -> text.
  Variable scan_chars : text -> option ptree.

  Hypothesis syntax_roundtrip :
    syntax_law resolve default_tag analyze simple_key text emit_chars scan_chars.

  Local Notation yaml_dump_m :=
    (yaml_dump_m float_text date_text datetime_text resolve default_tag analyze simple_key text emit_chars).
  Local Notation yaml_load_m :=
    (yaml_load_m float_read timestamp_read decimal_read resolve default_tag text scan_chars).

  (* the law that Section YamlText assumes, derived for the modelled text layer *)
  Theorem yaml_roundtrip_m t :
    representable t = true -> tokens_ok t = true ->
    exists txt, yaml_dump_m t = Some txt /\ yaml_load_m txt = Some t.
  Proof.
    intros R Hok. rewrite <- represent_tree_defined in R.
    destruct (represent_tree t) as [n|] eqn:E; [|discriminate].
    exists (emit_chars (present n)). unfold Continuation.yaml_dump_m, Continuation.yaml_load_m.
    rewrite E. cbn [option_map]. split; [reflexivity|].
    rewrite syntax_roundtrip, compose_present. now apply construct_represent.
  Qed.
End YamlModelP.

Lemma dep_eqb_eq a b : dep_eqb a b = true <-> a = b.
Proof.
  destruct a as [a1 a2 a3], b as [b1 b2 b3]. unfold dep_eqb. cbn [d_from d_to d_field].
  rewrite !andb_true_iff, !String.eqb_eq. split; [now intros [[-> ->] ->]|now intros [= -> -> ->]].
Qed.

Lemma existsb_dep_In d l : existsb (dep_eqb d) l = true <-> In d l.
Proof.
  rewrite existsb_exists. split.
  - intros (x & Hx & E). apply dep_eqb_eq in E. now subst.
  - intro H. exists d. split; [exact H|]. now apply dep_eqb_eq.
Qed.

Lemma in_dep_add l x d : In d (dep_add l x) <-> In d l \/ d = x.
Proof.
  unfold dep_add. destruct (existsb (dep_eqb x) l) eqn:E.
  - apply existsb_dep_In in E. split; [auto|]. now intros [H| ->].
  - rewrite in_app_iff. cbn [In]. intuition.
Qed.

Theorem in_record_deps news : forall l d, In d (record_deps l news) <-> In d l \/ In d news.
Proof.
  unfold record_deps. induction news as [|x r IH]; intros l d; cbn [fold_left In]; [tauto|].
  rewrite IH, in_dep_add. intuition.
Qed.

Theorem record_prefix news : forall l, exists tail, record_deps l news = (l ++ tail)%list.
Proof.
  unfold record_deps. induction news as [|d r IH]; intro l; cbn [fold_left].
  - exists []. now rewrite app_nil_r.
  - unfold dep_add at 2. destruct (existsb (dep_eqb d) l).
    + apply IH.
    + destruct (IH (l ++ [d])%list) as [tail E]. exists (d :: tail). rewrite E, <- app_assoc. reflexivity.
Qed.

Theorem record_known news : forall l,
  (forall d, In d news -> In d l) -> record_deps l news = l.
Proof.
  unfold record_deps. induction news as [|d r IH]; intros l H; cbn [fold_left]; [reflexivity|].
  unfold dep_add at 2. assert (existsb (dep_eqb d) l = true) as ->.
  { apply existsb_dep_In, H. now left. }
  apply IH. intros x Hx. apply H. now right.
Qed.

Lemma dep_add_nodup l x : nodup_deps l = true -> nodup_deps (dep_add l x) = true.
Proof.
  unfold dep_add. destruct (existsb (dep_eqb x) l) eqn:E; [auto|].
  induction l as [|y l IH]; [reflexivity|]. cbn [app nodup_deps existsb] in *. intro H.
  apply orb_false_iff in E as [Exy E]. apply andb_prop in H as [Hy Hl]. apply negb_true_iff in Hy.
  rewrite (IH E Hl), existsb_app, Hy, andb_true_r. cbn [existsb orb]. rewrite orb_false_r.
  destruct (dep_eqb y x) eqn:Eyx; [|reflexivity].
  apply dep_eqb_eq in Eyx. subst y. now rewrite (proj2 (dep_eqb_eq x x) eq_refl) in Exy.
Qed.

Definition k1_row : row := mkRow "A" [("id", VInt 1); ("b", VRow "B" 1); ("n", VInt 5)].

(* the witness of K1: the state after one iteration of
   B (just_once, name: x);  A (just_once, nickname aa, b: reference B, n: 5) *)
Definition k1_state : globals :=
  mkGlobals [("B", 1); ("A", 1)] []
            [("aa", k1_row)]
            [("B", mkRow "B" [("id", VInt 1); ("name", VStr "x")]); ("A", k1_row)]
            [("aa", "A"); ("B", "B"); ("A", "A")]
            (VDate 738945) [mkDep "A" "B" "b"]
            (mkTr [("aa", "A"); ("B", "B"); ("A", "A")] [("B", 1); ("A", 1)]) [].

(* state after one iteration of:  J (just_once, nickname jj, f: v) *)
Definition k2_state (v : value) : globals :=
  mkGlobals [("J", 1)] [] [("jj", mkRow "J" [("id", VInt 1); ("f", v)])]
            [("J", mkRow "J" [("id", VInt 1); ("f", v)])]
            [("jj", "J"); ("J", "J")] (VDate 738945) []
            (mkTr [("jj", "J"); ("J", "J")] [("J", 1)]) [].
