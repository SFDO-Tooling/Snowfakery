(* ScheduleP.v — proofs about the model of Schedule.py (property C15).
   First Snowfakery's own part: [wire_inv] is the one inversion of [wire], from which the theorems
   about keywords here and in props/C15.v are read off; then include / exclude, rows, [run].
   Then the executable model of the engine: ranges of days, calendar arithmetic, the periods of a
   rule, its normal form ([normalize_ok]), one rule ([gen_exact]), the interval grid ([aligned_iff]),
   rule sets ([combine_spec], [rs_occ_unfold]). *)
From Coq Require Import ZArith List Bool String Lia Sorted.
From SFV Require Import Base Schedule.
From SFV.P Require Import BaseP.
Import ListNotations. Open Scope Z_scope.

(* a successful [bind], as an elimination rule for the goal: checked at a fraction of the cost of
   the form with an existential, applied in a hypothesis *)
Lemma bind_ok : forall A B (r : result A) (f : A -> result B) b (Q : Prop),
  (forall a, r = Ok a -> f a = Ok b -> Q) -> bind r f = Ok b -> Q.
Proof. intros A B r f b Q K H. destruct r as [a|e]; [exact (K a eq_refl H) | discriminate]. Qed.

Ltac bind_inv x Hx := apply bind_ok; intros x Hx.

Definition US_PER_DAY : Z := 86400000000.

Definition instant (off : Z) (x : dt) : Z := d_days x * US_PER_DAY + d_us x - off * 1000000.

Lemma instant_days : forall off d x,
  instant off (mkDT d (d_us x) (d_tz x)) - instant off x = (d - d_days x) * US_PER_DAY.
Proof. intros. unfold instant. cbn [d_days d_us]. lia. Qed.

Lemma dates_sorted : forall off l,
  Forall (fun x => 0 <= d_us x < US_PER_DAY) l ->
  StronglySorted (fun x y => instant off x <= instant off y) l ->
  StronglySorted (fun x y => d_days x <= d_days y) l.
Proof.
  intros off l Hv Hs. induction Hs as [|x r Hs IH Hx]; [constructor|].
  apply Forall_cons_iff in Hv. destruct Hv as [Vx Vr]. constructor; [apply IH; assumption|].
  rewrite Forall_forall in *. intros y Hy.
  specialize (Hx y Hy). specialize (Vr y Hy). unfold instant, US_PER_DAY in *. lia.
Qed.

Lemma wire_inv : forall P now a r p sp,
  wire P now a = Ok (r, p, sp) ->
  exists fq ex inc,
    (s_freq a = Some fq /\
     norm_freq fq p = Ok (r_freq r) /\
     norm_start P now (dflt ANone (s_start_date a)) = Ok (r_dtstart r, p) /\
     r_interval r = to_scalar (dflt (AInt 1) (s_interval a)) /\
     r_count r = to_scalar (dflt ANone (s_count a)) /\
     norm_until P (r_dtstart r) (dflt ANone (s_until a)) = Ok (r_until r) /\
     ints (dflt ANone (s_bysetpos a)) = Ok (r_bysetpos r) /\
     ints (dflt ANone (s_bymonth a)) = Ok (r_bymonth r) /\
     ints (dflt ANone (s_bymonthday a)) = Ok (r_bymonthday r) /\
     ints (dflt ANone (s_byyearday a)) = Ok (r_byyearday r) /\
     ints (dflt ANone (s_byeaster a)) = Ok (r_byeaster r) /\
     ints (dflt ANone (s_byweekno a)) = Ok (r_byweekno r) /\
     weekdays (dflt ANone (s_byweekday a)) = Ok (r_byweekday r) /\
     ints (dflt ANone (s_byhour a)) = Ok (r_byhour r) /\
     ints (dflt ANone (s_byminute a)) = Ok (r_byminute r) /\
     ints (dflt ANone (s_bysecond a)) = Ok (r_bysecond r) /\
     r_wkst r = Some SU /\
     r_cache r = to_scalar (dflt (ABool false) (s_cache a))) /\
    truthy (dflt (AInt 1) (s_interval a)) = true /\
    special_part P (r_dtstart r) MExRule MExDate (dflt ANone (s_exclude a)) = Ok ex /\
    special_part P (r_dtstart r) MRRule MRDate (dflt ANone (s_include a)) = Ok inc /\
    sp = ex ++ inc.
Proof.
  intros P now a r p sp. unfold wire.
  destruct (s_freq a) as [fq|]; [|discriminate].
  bind_inv u Hu. bind_inv st Hst. destruct st as [start p0].
  bind_inv v1 H1. bind_inv v2 H2. bind_inv v3 H3. bind_inv v4 H4. bind_inv v5 H5.
  bind_inv v6 H6. bind_inv v7 H7. bind_inv v8 H8. bind_inv v9 H9.
  bind_inv un Hun. bind_inv fr Hfr. bind_inv ci Hci. bind_inv wd Hwd.
  bind_inv exs Hex. bind_inv incs Hinc. intro H.
  unfold check_interval in Hci. destruct (truthy (dflt (AInt 1) (s_interval a))); [|discriminate].
  injection H as Er <- <-.
  exists fq, exs, incs. repeat split; try assumption.
  (* the conjuncts that speak of a field of r: its value is put in only now, one conjunct at a time
     (substituted into the whole conjunction it is dear to check) *)
  all: destruct Er; (reflexivity || assumption).
Qed.

Theorem wiring_faithful : forall P now a r p sp,
  wire P now a = Ok (r, p, sp) ->
  exists fq,
    s_freq a = Some fq /\
    norm_freq fq p = Ok (r_freq r) /\
    norm_start P now (dflt ANone (s_start_date a)) = Ok (r_dtstart r, p) /\
    r_interval r = to_scalar (dflt (AInt 1) (s_interval a)) /\
    r_count r = to_scalar (dflt ANone (s_count a)) /\
    norm_until P (r_dtstart r) (dflt ANone (s_until a)) = Ok (r_until r) /\
    ints (dflt ANone (s_bysetpos a)) = Ok (r_bysetpos r) /\
    ints (dflt ANone (s_bymonth a)) = Ok (r_bymonth r) /\
    ints (dflt ANone (s_bymonthday a)) = Ok (r_bymonthday r) /\
    ints (dflt ANone (s_byyearday a)) = Ok (r_byyearday r) /\
    ints (dflt ANone (s_byeaster a)) = Ok (r_byeaster r) /\
    ints (dflt ANone (s_byweekno a)) = Ok (r_byweekno r) /\
    weekdays (dflt ANone (s_byweekday a)) = Ok (r_byweekday r) /\
    ints (dflt ANone (s_byhour a)) = Ok (r_byhour r) /\
    ints (dflt ANone (s_byminute a)) = Ok (r_byminute r) /\
    ints (dflt ANone (s_bysecond a)) = Ok (r_bysecond r) /\
    r_wkst r = Some SU /\
    r_cache r = to_scalar (dflt (ABool false) (s_cache a)).
Proof.
  intros P now a r p sp H.
  destruct (wire_inv _ _ _ _ _ _ H) as (fq & _ & _ & W & _). exists fq. exact W.
Qed.

Lemma absent_default : forall B (f : arg -> result B) d o v b,
  f (dflt d o) = Ok v -> f d = Ok b -> o = None -> v = b.
Proof. intros B f d o v b H Hd ->. cbn [dflt] in H. congruence. Qed.

Theorem absent_keyword_absent_in_engine : forall P now a r p sp,
  wire P now a = Ok (r, p, sp) ->
  (s_bysetpos a = None -> r_bysetpos r = None) /\
  (s_bymonth a = None -> r_bymonth r = None) /\
  (s_bymonthday a = None -> r_bymonthday r = None) /\
  (s_byyearday a = None -> r_byyearday r = None) /\
  (s_byeaster a = None -> r_byeaster r = None) /\
  (s_byweekno a = None -> r_byweekno r = None) /\
  (s_byweekday a = None -> r_byweekday r = None) /\
  (s_byhour a = None -> r_byhour r = None) /\
  (s_byminute a = None -> r_byminute r = None) /\
  (s_bysecond a = None -> r_bysecond r = None) /\
  (s_until a = None -> r_until r = None) /\
  (s_count a = None -> r_count r = SNone) /\
  (s_interval a = None -> r_interval r = SInt 1).
Proof.
  intros P now a r p sp H.
  destruct (wiring_faithful _ _ _ _ _ _ H) as (fq & _ & _ & _ & Hiv & Hct & W). decompose [and] W.
  repeat split; intro E.
  (* count and interval (the last two) are handed over as they are, the others through a normaliser *)
  12: rewrite Hct, E; reflexivity. 12: rewrite Hiv, E; reflexivity.
  all: eapply absent_default; [eassumption | reflexivity | exact E].
Qed.

Definition with_bysecond (v : option arg) (a : sched_args) : sched_args :=
  mkS (s_freq a) (s_start_date a) (s_interval a) (s_count a) (s_until a) (s_bysetpos a) (s_bymonth a)
      (s_bymonthday a) (s_byyearday a) (s_byeaster a) (s_byweekno a) (s_byweekday a) (s_byhour a)
      (s_byminute a) v (s_cache a) (s_exclude a) (s_include a) (s_uuf a).

Definition with_r_bysecond (v : option (list Z)) (r : rrule_args) : rrule_args :=
  mkRR (r_freq r) (r_dtstart r) (r_interval r) (r_wkst r) (r_count r) (r_until r) (r_bysetpos r)
       (r_bymonth r) (r_bymonthday r) (r_byyearday r) (r_byeaster r) (r_byweekno r) (r_byweekday r)
       (r_byhour r) (r_byminute r) v (r_cache r).

Lemma rrule_args_ext : forall r r',
  r_freq r = r_freq r' -> r_dtstart r = r_dtstart r' -> r_interval r = r_interval r' ->
  r_wkst r = r_wkst r' -> r_count r = r_count r' -> r_until r = r_until r' ->
  r_bysetpos r = r_bysetpos r' -> r_bymonth r = r_bymonth r' -> r_bymonthday r = r_bymonthday r' ->
  r_byyearday r = r_byyearday r' -> r_byeaster r = r_byeaster r' -> r_byweekno r = r_byweekno r' ->
  r_byweekday r = r_byweekday r' -> r_byhour r = r_byhour r' -> r_byminute r = r_byminute r' ->
  r_bysecond r = r_bysecond r' -> r_cache r = r_cache r' -> r = r'.
Proof. intros [] []. cbn. intros. subst. reflexivity. Qed.

Theorem bysecond_restricts_only_seconds : forall P now a v r p sp r' p' sp',
  wire P now a = Ok (r, p, sp) ->
  wire P now (with_bysecond v a) = Ok (r', p', sp') ->
  r' = with_r_bysecond (r_bysecond r') r /\ p' = p /\ sp' = sp.
Proof.
  intros P now a v r p sp r' p' sp' H H'. apply wire_inv in H, H'. simpl in H'.
  destruct H as (fq & ex & inc & (Hf & Hq & Hs & W) & _ & Hex & Hinc & ->).
  destruct H' as (fq' & ex' & inc' & (Hf' & Hq' & Hs' & W') & _ & Hex' & Hinc' & ->).
  (* both runs compute every field but bysecond from the same keywords of [a]; the frequency keyword and
     the start first, since the frequency, until, include and exclude depend on them *)
  rewrite Hf in Hf'. injection Hf' as <-.
  rewrite Hs in Hs'. injection Hs' as Es <-. rewrite <- Es in *.
  split; [|split; [reflexivity | congruence]].
  decompose [and] W. decompose [and] W'. clear W W'.
  apply rrule_args_ext; simpl; congruence.
Qed.

Definition is_date_like (a : arg) : bool :=
  match a with
  | ADate _ => true
  | AStr s => negb (is_datetime s)
  | _ => false
  end.

Lemma norm_start_precision : forall P now a start p,
  norm_start P now a = Ok (start, p) -> p = if is_date_like a then PDate else PDateTime.
Proof.
  intros P now a start p. unfold norm_start.
  destruct a; cbn [is_date_like]; try (destruct (truthy _); [discriminate|]); try congruence.
  bind_inv t Ht. destruct (is_datetime s); cbn [negb]; congruence.
Qed.

Lemma norm_freq_time : forall fq p f,
  norm_freq fq p = Ok f -> is_time_freq f = true -> p = PDateTime.
Proof.
  intros fq p f H Ht. unfold norm_freq in H.
  destruct fq; try discriminate.
  destruct (freq_of (upper s)) as [f0|]; [|discriminate].
  destruct p; [|reflexivity].
  destruct (is_time_freq f0) eqn:E; [discriminate|]. injection H as <-. congruence.
Qed.

Lemma wire_refused : forall P now a,
  (forall r p sp, wire P now a <> Ok (r, p, sp)) -> is_ok (wire P now a) = false.
Proof.
  intros P now a N. destruct (wire P now a) as [[[r p] sp]|e]; [destruct (N r p sp eq_refl) | reflexivity].
Qed.

(* induction over [arg] with the induction hypothesis for the elements of a sequence *)
Definition seq_elements (Q : arg -> Prop) (a : arg) : Prop :=
  match a with ASeq _ l => Forall Q l | _ => True end.

Fixpoint arg_ind' (Q : arg -> Prop) (step : forall a, seq_elements Q a -> Q a) (a : arg) : Q a :=
  step a (match a return seq_elements Q a with
          | ASeq _ l => (fix go l : Forall Q l :=
                           match l with
                           | [] => Forall_nil Q
                           | x :: r => Forall_cons x (arg_ind' Q step x) (go r)
                           end) l
          | _ => I
          end).

Lemma mapM_app : forall A B (f : A -> result B) l1 l2,
  mapM f (l1 ++ l2) = (do a <- mapM f l1; do b <- mapM f l2; Ok (a ++ b)).
Proof.
  intros A B f l1 l2. induction l1 as [|x r IH]; cbn [mapM app bind].
  - destruct (mapM f l2); reflexivity.
  - destruct (f x) as [y|e]; cbn [bind]; [|reflexivity].
    rewrite IH. destruct (mapM f r) as [ys|e]; cbn [bind]; [|reflexivity].
    destruct (mapM f l2) as [zs|e]; reflexivity.
Qed.

Theorem specials_flatten : forall P start mr md a,
  specials P start mr md a = mapM (leaf_call P start mr md) (flatten a).
Proof.
  intros P start mr md. apply arg_ind'. intros a IH.
  destruct a; cbn [specials flatten mapM leaf_call bind]; try reflexivity.
  - destruct (P s); reflexivity.
  - induction IH as [|x r Hx _ IHr]; [reflexivity|]. rewrite mapM_app, <- Hx, <- IHr. reflexivity.
Qed.

Lemma special_part_flatten : forall P start mr md a,
  special_part P start mr md a =
  if truthy a then mapM (leaf_call P start mr md) (flatten a) else Ok [].
Proof. intros. unfold special_part. rewrite specials_flatten. reflexivity. Qed.

Theorem leaf_dates_aware : forall P start mr md a m x,
  d_tz start <> None ->
  leaf_call P start mr md a = Ok (CDate m x) -> d_tz x <> None.
Proof.
  intros P start mr md a m x Hs H. destruct a; cbn [leaf_call] in H; try discriminate.
  - destruct (P s); [|discriminate]. injection H as _ <-. exact Hs.
  - injection H as _ <-. exact Hs.
  - injection H as _ <-. unfold ensure_tz. destruct (d_tz t) eqn:E; cbn [d_tz]; congruence.
Qed.

(* a string that is not empty is truthy *)
Lemma norm_until_str : forall P start s, s <> EmptyString ->
  norm_until P start (AStr s) =
  if is_datetime s then (do t <- parse_dts P s; Ok (Some t))
  else (do t <- P s; Ok (Some (ensure_tz (at_start_time start (d_days t))))).
Proof.
  intros P start s Hne. unfold norm_until. cbn [truthy].
  destruct (String.eqb_spec s EmptyString); [contradiction | reflexivity].
Qed.

Lemma rows_count_inv : forall p n stream vs,
  rows p (MCount n) stream = Ok vs ->
  (n <= List.length stream)%nat /\ vs = map (emit_next p) (firstn n stream).
Proof.
  intros p n stream vs H. unfold rows in H.
  destruct (Nat.ltb_spec (List.length stream) n); [discriminate|]. injection H as <-. auto.
Qed.

Theorem rows_count_length : forall p n stream vs,
  rows p (MCount n) stream = Ok vs -> List.length vs = n.
Proof.
  intros p n stream vs H. apply rows_count_inv in H. destruct H as [Hn ->].
  rewrite map_length, firstn_length. lia.
Qed.

Lemma StronglySorted_app_iff : forall A (R : A -> A -> Prop) l1 l2,
  StronglySorted R (l1 ++ l2) <->
  StronglySorted R l1 /\ StronglySorted R l2 /\ (forall x y, In x l1 -> In y l2 -> R x y).
Proof.
  intros A R l1 l2. induction l1 as [|a r IH]; cbn [app In].
  - split; [intro H; repeat split; [constructor | exact H | contradiction] | tauto].
  - assert (C : forall l, StronglySorted R (a :: l) <-> StronglySorted R l /\ Forall (R a) l)
      by (split; [apply StronglySorted_inv | intros []; constructor; assumption]).
    rewrite !C, IH, Forall_app, !Forall_forall. split.
    + intros ((S1 & S2 & H) & F1 & F2). repeat split; try assumption. intros x y [<-|Hx]; auto.
    + intros ((S1 & F1) & S2 & H). repeat split; auto.
Qed.

Lemma In_firstn : forall A n (l : list A) y, In y (firstn n l) -> In y l.
Proof. intros A n l y H. rewrite <- (firstn_skipn n l). apply in_or_app. left. exact H. Qed.

Lemma firstn_StronglySorted : forall A (R : A -> A -> Prop) n l,
  StronglySorted R l -> StronglySorted R (firstn n l).
Proof. intros A R n l H. rewrite <- (firstn_skipn n l) in H. apply StronglySorted_app_iff in H. apply H. Qed.

Lemma call_event_inv : forall via memo P now kw rs p,
  call_event via memo P now kw = Ok (rs, p) ->
  exists a r sp,
    to_sched_args via kw = Ok a /\ wire P now a = Ok (r, p, sp) /\ rs = ruleset_of a r sp /\
    (memo = true -> forallb (fun kv => hashable (snd kv)) kw = true).
Proof.
  intros via memo P now kw rs p. unfold call_event.
  destruct (memo && _) eqn:Hm; [discriminate|].
  bind_inv a Ha. bind_inv w Hw. destruct w as [[r p0] sp]. intros [= <- <-].
  exists a, r, sp. repeat split; try assumption.
  intros ->. destruct (forallb _ kw); [reflexivity | discriminate].
Qed.

Theorem run_sound : forall via memo P now kw m stream rs vs,
  run via memo P now kw m stream = Ok (rs, vs) ->
  exists kw' a r p sp,
    eval_kw via memo P now kw = Ok kw' /\
    to_sched_args via kw' = Ok a /\
    wire P now a = Ok (r, p, sp) /\
    rs = ruleset_of a r sp /\
    rows p m stream = Ok vs.
Proof.
  intros via memo P now kw m stream rs vs. unfold run.
  bind_inv kw' Hk. bind_inv rp Hc. destruct rp as [rs0 p]. bind_inv vs0 Hr. intros [= <- <-].
  destruct (call_event_inv _ _ _ _ _ _ _ Hc) as (a & r & sp & ? & ? & ? & _).
  exists kw', a, r, p, sp. auto.
Qed.

Lemma rows_of_prefix : forall A (f : A -> dt) l via memo P now kw n stream rs vs,
  run via memo P now kw (MCount n) stream = Ok (rs, vs) ->
  stream = map f (firstn (List.length stream) l) ->
  exists p, vs = map (emit_next p) (map f (firstn n l)) /\ List.length vs = n.
Proof.
  intros A f l via memo P now kw n stream rs vs R Es.
  destruct (run_sound _ _ _ _ _ _ _ _ _ R) as (kw' & a & r & p & sp & _ & _ & _ & _ & Hr).
  exists p. split; [|exact (rows_count_length _ _ _ _ Hr)].
  apply rows_count_inv in Hr. destruct Hr as [Hn ->].
  f_equal. rewrite Es, firstn_map, firstn_firstn, Nat.min_l by assumption. reflexivity.
Qed.

Lemma guard_ok : forall A (b : bool) (e : err) (x a : A), (if b then Err e else Ok x) = Ok a -> x = a.
Proof. intros A [] e x a H; [discriminate | injection H; auto]. Qed.

Lemma mkS_fields : forall f1 f2 f3 f4 f5 f6 f7 f8 f9 f10 f11 f12 f13 f14 f15 f16 f17 f18 f19 a,
  mkS f1 f2 f3 f4 f5 f6 f7 f8 f9 f10 f11 f12 f13 f14 f15 f16 f17 f18 f19 = a ->
  s_freq a = f1 /\ s_start_date a = f2 /\ s_interval a = f3 /\ s_count a = f4 /\ s_until a = f5 /\
  s_bysetpos a = f6 /\ s_bymonth a = f7 /\ s_bymonthday a = f8 /\ s_byyearday a = f9 /\
  s_byeaster a = f10 /\ s_byweekno a = f11 /\ s_byweekday a = f12 /\ s_byhour a = f13 /\
  s_byminute a = f14 /\ s_bysecond a = f15 /\ s_cache a = f16 /\ s_exclude a = f17 /\ s_include a = f18.
Proof. intros. subst a. repeat split. Qed.

Theorem event_passthrough : forall via kw a,
  to_sched_args via kw = Ok a ->
  s_freq a = assoc "freq" kw /\ s_start_date a = assoc "start_date" kw /\
  s_interval a = assoc "interval" kw /\ s_count a = assoc "count" kw /\
  s_until a = assoc "until" kw /\ s_bysetpos a = assoc "bysetpos" kw /\
  s_bymonth a = assoc "bymonth" kw /\ s_bymonthday a = assoc "bymonthday" kw /\
  s_byyearday a = assoc "byyearday" kw /\ s_byeaster a = assoc "byeaster" kw /\
  s_byweekno a = assoc "byweekno" kw /\ s_byweekday a = assoc "byweekday" kw /\
  s_byhour a = assoc "byhour" kw /\ s_byminute a = assoc "byminute" kw /\
  s_bysecond a = assoc "bysecond" kw /\ s_cache a = assoc "cache" kw /\
  s_exclude a = assoc "exclude" kw /\ s_include a = assoc "include" kw.
Proof.
  (* through the lemma about variables, the long keyword lookups are written down once *)
  intros via kw a H. apply guard_ok in H. exact (mkS_fields _ _ _ _ _ _ _ _ _ _ _ _ _ _ _ _ _ _ _ _ H).
Qed.

Lemma zrange_Zseq : forall lo len, zrange lo len = Zseq lo (Z.to_nat len).
Proof.
  intros lo len. unfold zrange. generalize (Z.to_nat len). intro n. revert lo.
  induction n as [|n IH]; intro lo; [reflexivity|].
  cbn [seq map Zseq]. rewrite <- seq_shift, map_map, <- IH. f_equal; [lia|]. apply map_ext. intro i. lia.
Qed.

Lemma in_zrange : forall lo len n, In n (zrange lo len) <-> lo <= n < lo + len.
Proof. intros lo len n. rewrite zrange_Zseq, Zseq_In. lia. Qed.

Lemma zrange_app : forall lo a b, 0 <= a -> 0 <= b -> zrange lo (a + b) = zrange lo a ++ zrange (lo + a) b.
Proof. intros lo a b Ha Hb. rewrite !zrange_Zseq, Z2Nat.inj_add, Zseq_app by lia. do 2 f_equal. lia. Qed.

Lemma zrange_nil : forall lo len, len <= 0 -> zrange lo len = [].
Proof. intros lo len H. rewrite zrange_Zseq. replace (Z.to_nat len) with 0%nat by lia. reflexivity. Qed.

Lemma Zseq_sorted : forall n a, StronglySorted Z.lt (Zseq a n).
Proof.
  induction n as [|n IH]; intro a; cbn [Zseq]; constructor; [apply IH|].
  apply Forall_forall. intros x Hx. apply Zseq_In in Hx. lia.
Qed.

Lemma map_zrange_shift : forall {A} (f g : Z -> A) a b len,
  (forall i, 0 <= i < len -> f (a + i) = g (b + i)) -> map f (zrange a len) = map g (zrange b len).
Proof.
  intros A f g a b len H. unfold zrange. rewrite !map_map. apply map_ext_in.
  intros i Hi. apply in_seq in Hi. apply H. lia.
Qed.

(* the quotients that matter are named by hand: [Z.div_mod_to_equations] costs about a hundred times as much *)
Lemma euclid : forall a b, 0 < b -> a = b * (a / b) + a mod b /\ 0 <= a mod b < b.
Proof. intros a b H. split; [apply Z.div_mod; lia | apply Z.mod_pos_bound; exact H]. Qed.

Lemma mono_steps : forall (f : Z -> Z) a b,
  a <= b -> (forall x, a <= x < b -> f x <= f (x + 1)) -> f a <= f b.
Proof.
  intros f a. apply (Z.le_ind (fun b => (forall x, a <= x < b -> f x <= f (x + 1)) -> f a <= f b)).
  - intros b b' <-. reflexivity.
  - lia.
  - intros b Hb IH Hs. rewrite <- Z.add_1_r in *.
    specialize (Hs b ltac:(lia)) as Hb1. specialize (IH ltac:(intros; apply Hs; lia)). lia.
Qed.

Lemma is_leap_true : forall y, is_leap y = true <-> ((y mod 4 = 0 /\ y mod 100 <> 0) \/ y mod 400 = 0).
Proof. intro y. unfold is_leap. rewrite orb_true_iff, andb_true_iff, negb_true_iff, !Z.eqb_eq, Z.eqb_neq. tauto. Qed.

Lemma year_len_pos : forall y, 365 <= year_len y <= 366.
Proof. intro y. unfold year_len. destruct (is_leap y); lia. Qed.

Lemma dby_succ : forall y, days_before_year (y + 1) = days_before_year y + year_len y.
Proof.
  intro y. unfold days_before_year, year_len.
  replace (y + 1 - 1) with y by lia.
  pose proof (euclid y 4 eq_refl). pose proof (euclid y 100 eq_refl). pose proof (euclid y 400 eq_refl).
  pose proof (euclid (y - 1) 4 eq_refl). pose proof (euclid (y - 1) 100 eq_refl).
  pose proof (euclid (y - 1) 400 eq_refl).
  destruct (is_leap y) eqn:E.
  - apply is_leap_true in E. lia.
  - assert (N : ~ ((y mod 4 = 0 /\ y mod 100 <> 0) \/ y mod 400 = 0)) by (rewrite <- is_leap_true; congruence).
    lia.
Qed.

Lemma dby_mono : forall y y', y <= y' -> days_before_year y <= days_before_year y'.
Proof.
  intros y y' H. apply (mono_steps days_before_year); [exact H|].
  intros x _. rewrite dby_succ. pose proof (year_len_pos x). lia.
Qed.

(* the days before a year, counted in cycles of 400, 100, 4 and 1 years *)
Lemma dby_cycles : forall a b c e, 0 <= b <= 3 -> 0 <= c <= 24 -> 0 <= e <= 3 ->
  days_before_year (400 * a + 100 * b + 4 * c + e + 1) = 146097 * a + 36524 * b + 1461 * c + 365 * e.
Proof.
  intros. unfold days_before_year. remember (400 * a + 100 * b + 4 * c + e + 1 - 1) as x eqn:Ex.
  pose proof (euclid x 4 eq_refl). pose proof (euclid x 100 eq_refl). pose proof (euclid x 400 eq_refl). lia.
Qed.

Lemma year_of_bracket : forall n,
  days_before_year (year_of n) < n <= days_before_year (year_of n) + year_len (year_of n).
Proof.
  intro n. remember (year_of n) as y eqn:Ey. unfold year_of in Ey.
  pose proof (euclid (n - 1) 146097 eq_refl) as H1.
  set (n400 := (n - 1) / 146097) in *. set (r1 := (n - 1) mod 146097) in *.
  pose proof (euclid r1 36524 eq_refl) as H2.
  set (n100 := r1 / 36524) in *. set (r2 := r1 mod 36524) in *.
  pose proof (euclid r2 1461 eq_refl) as H3.
  set (n4 := r2 / 1461) in *. set (r3 := r2 mod 1461) in *.
  pose proof (euclid r3 365 eq_refl) as H4.
  set (n1 := r3 / 365) in *.
  clearbody n400 r1 n100 r2 n4 r3 n1. cbv zeta in Ey.
  set (y0 := 400 * n400 + 100 * n100 + 4 * n4 + n1) in *.
  destruct ((n1 =? 4) || (n100 =? 4)) eqn:E; subst y.
  - (* n is the last day of a cycle of 4 or of 400 years, the 366th of its year *)
    replace (y0 + 1 - 1) with y0 by lia.
    assert (L : n = days_before_year (y0 + 1)).
    { apply orb_true_iff in E. rewrite !Z.eqb_eq in E. destruct E as [E|E].
      - replace (y0 + 1) with (400 * n400 + 100 * n100 + 4 * (n4 + 1) + 0 + 1) by lia.
        rewrite dby_cycles by lia. lia.
      - replace (y0 + 1) with (400 * (n400 + 1) + 100 * 0 + 4 * 0 + 0 + 1) by lia.
        rewrite dby_cycles by lia. lia. }
    rewrite dby_succ in L. pose proof (year_len_pos y0). lia.
  - apply orb_false_iff in E. rewrite !Z.eqb_neq in E.
    subst y0. rewrite dby_cycles by lia.
    match goal with |- context [year_len ?x] => pose proof (year_len_pos x) end. lia.
Qed.

Lemma year_unique : forall n y,
  days_before_year y < n <= days_before_year y + year_len y -> year_of n = y.
Proof.
  intros n y H. pose proof (year_of_bracket n) as B. rewrite <- dby_succ in H, B.
  destruct (Z.lt_trichotomy (year_of n) y) as [L|[E|G]]; [|exact E|].
  - pose proof (dby_mono (year_of n + 1) y). lia.
  - pose proof (dby_mono (y + 1) (year_of n)). lia.
Qed.

(* the month table, once: each month begins where the one before ends.  A finite table: its twelve
   rows are checked by evaluation, for leap years and for the others *)
Lemma dbm_succ : forall y m, 1 <= m <= 12 ->
  days_before_month y (m + 1) = days_before_month y m + month_len y m.
Proof.
  intros y m H.
  assert (T : forallb (fun m => days_before_month y (m + 1) =? days_before_month y m + month_len y m)
                      (zrange 1 12) = true)
    by (unfold days_before_month, month_len; destruct (is_leap y); reflexivity).
  rewrite forallb_forall in T. apply Z.eqb_eq, T, in_zrange. lia.
Qed.

Lemma dbm_1 : forall y, days_before_month y 1 = 0.
Proof. reflexivity. Qed.

Lemma dbm_13 : forall y, days_before_month y 13 = year_len y.
Proof. intro y. unfold days_before_month, year_len. destruct (is_leap y); reflexivity. Qed.

Lemma month_len_pos : forall y m, 28 <= month_len y m <= 31.
Proof. intros. unfold month_len. destruct (m =? 2); [destruct (is_leap y); lia|]. destruct (_ || _); lia. Qed.

Lemma dbm_mono : forall y m m', 1 <= m <= m' -> m' <= 13 -> days_before_month y m <= days_before_month y m'.
Proof.
  intros y m m' H H'. apply (mono_steps (days_before_month y)); [lia|].
  intros x Hx. rewrite dbm_succ by lia. pose proof (month_len_pos y x). lia.
Qed.

Lemma yday_range : forall y m d, 1 <= m <= 12 -> 1 <= d <= month_len y m ->
  1 <= days_before_month y m + d <= year_len y.
Proof.
  intros y m d Hm Hd. pose proof (dbm_mono y 1 m) as A. pose proof (dbm_mono y (m + 1) 13) as B.
  rewrite dbm_succ, dbm_13 in B by lia. rewrite dbm_1 in A. lia.
Qed.

Lemma month_of_bracket : forall y yd, 1 <= yd <= year_len y ->
  1 <= month_of y yd <= 12 /\
  days_before_month y (month_of y yd) < yd <= days_before_month y (month_of y yd) + month_len y (month_of y yd).
Proof.
  intros y yd H. pose proof (dbm_1 y). pose proof (dbm_13 y).
  (* the statement as a predicate of the month, so that the cascade is taken apart only once *)
  set (Q := fun m => 1 <= m <= 12 /\ days_before_month y m < yd <= days_before_month y m + month_len y m).
  change (Q (month_of y yd)). unfold month_of.
  (* the cascade stops at the first m with yd <= days_before_month y (m + 1) *)
  repeat match goal with |- context [if ?a <=? ?b then _ else _] => destruct (Z.leb_spec a b) end;
    subst Q; cbn beta; (split; [lia|]); rewrite <- dbm_succ by lia; cbn [Z.add Pos.add Pos.succ]; lia.
Qed.

Lemma month_unique : forall y yd m, 1 <= m <= 12 ->
  days_before_month y m < yd <= days_before_month y m + month_len y m -> month_of y yd = m.
Proof.
  intros y yd m Hm H.
  pose proof (yday_range y m (yd - days_before_month y m) Hm).
  destruct (month_of_bracket y yd ltac:(lia)) as [B1 B2]. rewrite <- dbm_succ in H, B2 by lia.
  destruct (Z.lt_trichotomy (month_of y yd) m) as [L|[E|G]]; [|exact E|].
  - pose proof (dbm_mono y (month_of y yd + 1) m). lia.
  - pose proof (dbm_mono y (m + 1) (month_of y yd)). lia.
Qed.

Lemma civil_of_days : forall n y m d, civil_from_days n = (y, m, d) ->
  1 <= m <= 12 /\ 1 <= d <= month_len y m /\ days_from_civil y m d = n /\ y = year_of n.
Proof.
  intros n y m d H. unfold civil_from_days in H. injection H as <- <- <-.
  pose proof (year_of_bracket n) as B.
  destruct (month_of_bracket (year_of n) (n - days_before_year (year_of n)) ltac:(lia)) as [M1 M2].
  unfold days_from_civil. repeat split; lia.
Qed.

Lemma days_of_civil : forall y m d, 1 <= m <= 12 -> 1 <= d <= month_len y m ->
  civil_from_days (days_from_civil y m d) = (y, m, d).
Proof.
  intros y m d Hm Hd. unfold civil_from_days, days_from_civil.
  pose proof (yday_range y m d Hm Hd).
  rewrite (year_unique _ y) by lia.
  replace (days_before_year y + days_before_month y m + d - days_before_year y) with (days_before_month y m + d) by lia.
  rewrite (month_unique _ _ m) by lia. f_equal. lia.
Qed.

Lemma weekday_range : forall n, 0 <= weekday n <= 6.
Proof. intro n. pose proof (euclid (n + 6) 7 eq_refl). unfold weekday. lia. Qed.

Lemma dfc_first : forall y m d, days_from_civil y m d = days_from_civil y m 1 + d - 1.
Proof. intros. unfold days_from_civil. lia. Qed.

Lemma dfc_next_month : forall y m, 1 <= m <= 12 ->
  days_from_civil y m 1 + month_len y m =
  if m =? 12 then days_from_civil (y + 1) 1 1 else days_from_civil y (m + 1) 1.
Proof.
  intros y m H. unfold days_from_civil. destruct (Z.eqb_spec m 12) as [->|N].
  - rewrite dby_succ, dbm_1, <- dbm_13. change 13 with (12 + 1). rewrite dbm_succ by lia. lia.
  - rewrite dbm_succ by lia. lia.
Qed.

Lemma info_of_civil : forall y m d, 1 <= m <= 12 -> 1 <= d <= month_len y m ->
  info_of (days_from_civil y m d) =
  (days_from_civil y m d, m, d, days_before_month y m + d, month_len y m, year_len y).
Proof.
  intros y m d Hm Hd. unfold info_of. rewrite days_of_civil by assumption.
  replace (days_from_civil y m d - days_before_year y) with (days_before_month y m + d)
    by (unfold days_from_civil; lia).
  reflexivity.
Qed.

Lemma month_days_spec : forall y m, 1 <= m <= 12 ->
  month_days y m = map info_of (zrange (days_from_civil y m 1) (month_len y m)).
Proof.
  intros y m Hm. unfold month_days.
  apply map_zrange_shift. intros i Hi.
  replace (days_from_civil y m 1 + i) with (days_from_civil y m (1 + i)) by (rewrite (dfc_first y m (1 + i)); lia).
  rewrite info_of_civil by lia. rewrite (dfc_first y m (1 + i)). repeat f_equal; lia.
Qed.

Lemma months_days_spec : forall y k, 0 <= k <= 12 ->
  flat_map (month_days y) (zrange 1 k)
  = map info_of (zrange (days_from_civil y 1 1) (days_before_month y (k + 1))).
Proof.
  intros y k [H0 H12]. revert H12. pattern k. apply natlike_ind; [reflexivity | | exact H0].
  intros x Hx IH Hs. unfold Z.succ.
  rewrite zrange_app, flat_map_app, IH by lia.
  change (zrange (1 + x) 1) with [1 + x + 0]. rewrite Z.add_0_r, (Z.add_comm 1 x).
  cbn [flat_map]. rewrite app_nil_r, month_days_spec, <- map_app by lia. f_equal.
  pose proof (dbm_mono y 1 (x + 1)). pose proof (month_len_pos y (x + 1)).
  rewrite (dbm_succ y (x + 1)), zrange_app by (rewrite ?dbm_1 in *; lia).
  do 2 f_equal. unfold days_from_civil. rewrite dbm_1. lia.
Qed.

Lemma year_days_spec : forall y,
  flat_map (month_days y) [1; 2; 3; 4; 5; 6; 7; 8; 9; 10; 11; 12]
  = map info_of (zrange (days_from_civil y 1 1) (year_len y)).
Proof. intro y. rewrite <- dbm_13. exact (months_days_spec y 12 ltac:(lia)). Qed.

Definition plo (q : rule) (k : Z) : Z := fst (period q k).
Definition phi (q : rule) (k : Z) : Z := snd (period q k).

(* first day of the month with index mi = 12 * year + (month - 1) *)
Definition mfirst (mi : Z) : Z := days_from_civil (mi / 12) (mi mod 12 + 1) 1.

(* for folding [mfirst] by rewriting: when the folding is left to conversion, checking it evaluates
   the divisions on both sides, which is slow *)
Lemma mfirst_eq : forall mi, days_from_civil (mi / 12) (mi mod 12 + 1) 1 = mfirst mi.
Proof. intro mi. unfold mfirst. reflexivity. Qed.

Lemma month_index : forall mi, 1 <= mi mod 12 + 1 <= 12.
Proof. intro mi. pose proof (euclid mi 12 eq_refl). lia. Qed.

Lemma mfirst_succ : forall mi, mfirst (mi + 1) = mfirst mi + month_len (mi / 12) (mi mod 12 + 1).
Proof.
  intro mi. unfold mfirst.
  pose proof (euclid mi 12 eq_refl). pose proof (euclid (mi + 1) 12 eq_refl).
  rewrite (dfc_next_month (mi / 12) (mi mod 12 + 1)) by lia.
  destruct (Z.eqb_spec (mi mod 12 + 1) 12) as [E|N].
  - replace ((mi + 1) / 12) with (mi / 12 + 1) by lia.
    replace ((mi + 1) mod 12 + 1) with 1 by lia. reflexivity.
  - replace ((mi + 1) / 12) with (mi / 12) by lia.
    replace ((mi + 1) mod 12 + 1) with (mi mod 12 + 1 + 1) by lia. reflexivity.
Qed.

Lemma mfirst_mono : forall a b, a <= b -> mfirst a <= mfirst b.
Proof.
  intros a b H. apply (mono_steps mfirst); [exact H|].
  intros x _. rewrite mfirst_succ. pose proof (month_len_pos (x / 12) (x mod 12 + 1)). lia.
Qed.

Lemma yfirst_succ : forall y, days_from_civil (y + 1) 1 1 = days_from_civil y 1 1 + year_len y.
Proof. intro y. unfold days_from_civil. rewrite dby_succ, !dbm_1. lia. Qed.

Lemma period_lt : forall q k, plo q k < phi q k.
Proof.
  intros q k. unfold plo, phi, period.
  destruct (q_freq q =? 0); cbn [fst snd].
  - rewrite yfirst_succ. pose proof (year_len_pos (fst (start_ym q) + k * q_interval q)). lia.
  - destruct (q_freq q =? 1); cbn [fst snd].
    + match goal with |- context [month_len ?a ?b] => pose proof (month_len_pos a b) end. lia.
    + destruct (q_freq q =? 2); cbn [fst snd]; lia.
Qed.

Lemma period_mono : forall q k, 1 <= q_interval q -> phi q k <= plo q (k + 1).
Proof.
  intros q k Hi. unfold plo, phi, period.
  destruct (q_freq q =? 0); cbn [fst snd].
  - unfold days_from_civil. rewrite !dbm_1.
    pose proof (dby_mono (fst (start_ym q) + k * q_interval q + 1) (fst (start_ym q) + (k + 1) * q_interval q)). lia.
  - destruct (q_freq q =? 1); cbn [fst snd].
    + rewrite !mfirst_eq, <- mfirst_succ. apply mfirst_mono. lia.
    + destruct (q_freq q =? 2); cbn [fst snd]; lia.
Qed.

Lemma plo_mono : forall q k j, 1 <= q_interval q -> k <= j -> plo q k <= plo q j.
Proof.
  intros q k j Hi H. apply (mono_steps (plo q)); [exact H|].
  intros x _. pose proof (period_lt q x). pose proof (period_mono q x Hi). lia.
Qed.

Lemma period_mono_lt : forall q k j, 1 <= q_interval q -> k < j -> phi q k <= plo q j.
Proof.
  intros q k j Hi H. pose proof (period_mono q k Hi). pose proof (plo_mono q (k + 1) j Hi). lia.
Qed.

Lemma period_days_spec : forall q k,
  period_days q k = map info_of (zrange (plo q k) (phi q k - plo q k)).
Proof.
  intros q k. unfold period_days, plo, phi, period.
  destruct (q_freq q =? 0); cbn [fst snd].
  - rewrite year_days_spec, yfirst_succ, Z.add_simpl_l. reflexivity.
  - destruct (q_freq q =? 1); cbn [fst snd].
    + rewrite month_days_spec, Z.add_simpl_l by apply month_index. reflexivity.
    + destruct (q_freq q =? 2); reflexivity.
Qed.

Definition rule_ok (q : rule) : Prop :=
  1 <= q_interval q /\ Forall (fun t => 0 <= t < 86400) (q_times q) /\ StronglySorted Z.lt (q_times q).

Lemma insert_uniq_in : forall x y l, In y (insert_uniq x l) <-> x = y \/ In y l.
Proof.
  intros x y l. induction l as [|z r IH]; cbn [insert_uniq In]; [reflexivity|].
  destruct (Z.ltb_spec x z); cbn [In]; [reflexivity|].
  destruct (Z.eqb_spec x z) as [->|N]; cbn [In]; [clear; tauto|]. rewrite IH. clear. tauto.
Qed.

Lemma insert_uniq_sorted : forall x l, StronglySorted Z.lt l -> StronglySorted Z.lt (insert_uniq x l).
Proof.
  intros x l H. induction H as [|z r Hr IH Hz]; cbn [insert_uniq]; [repeat constructor|].
  destruct (Z.ltb_spec x z).
  - constructor; [constructor; assumption|]. constructor; [assumption|].
    eapply Forall_impl; [|exact Hz]. intros; lia.
  - destruct (Z.eqb_spec x z); [constructor; assumption|].
    constructor; [assumption|]. apply Forall_forall. intros y Hy. apply insert_uniq_in in Hy.
    rewrite Forall_forall in Hz. destruct Hy as [<-|Hy]; [lia | apply Hz; assumption].
Qed.

Lemma fold_insert_in : forall y l acc, In y (fold_right insert_uniq acc l) <-> In y l \/ In y acc.
Proof.
  intros y l acc. induction l as [|x r IH]; cbn [fold_right In]; [tauto|].
  rewrite insert_uniq_in, IH. clear. tauto.
Qed.

Lemma fold_insert_sorted : forall l acc, StronglySorted Z.lt acc -> StronglySorted Z.lt (fold_right insert_uniq acc l).
Proof. intros l acc H. induction l as [|x r IH]; cbn [fold_right]; [assumption | apply insert_uniq_sorted; assumption]. Qed.

Lemma sort_uniq_in : forall y l, In y (sort_uniq l) <-> In y l.
Proof. intros y l. unfold sort_uniq. rewrite fold_insert_in. cbn [In]. tauto. Qed.

Lemma sort_uniq_sorted : forall l, StronglySorted Z.lt (sort_uniq l).
Proof. intro l. apply fold_insert_sorted. constructor. Qed.

Lemma in_range_spec : forall lo hi l x, in_range lo hi l = true -> In x l -> lo <= x <= hi.
Proof.
  intros lo hi l x H Hx. unfold in_range in H. rewrite forallb_forall in H.
  specialize (H x Hx). lia.
Qed.

Lemma normalize_ok : forall r q, normalize r = Some q -> rule_ok q.
Proof.
  intros r q. unfold normalize.
  case (d_tz (r_dtstart r)); [intro tz | discriminate].
  case (r_interval r); try discriminate. intro iv.
  case (r_wkst r); [|discriminate]. intros [wk [n|]]; [discriminate|].
  case (civil_from_days (d_days (r_dtstart r))). intros [y0 m0] dd0.
  match goal with |- (match ?c with _ => _ end) = _ -> _ => case c; [intro cnt | discriminate] end.
  match goal with |- (match ?c with _ => _ end) = _ -> _ => case c; [intro unt | discriminate] end.
  match goal with |- (if ?c then _ else _) = _ -> _ => destruct c eqn:C; [|discriminate] end.
  intros [= <-]. unfold rule_ok. cbn [q_interval q_times].
  (* of the tests passed, the three ranges (the last) and the interval matter *)
  apply andb_prop in C. destruct C as [C Cs]. apply andb_prop in C. destruct C as [C Cm].
  apply andb_prop in C. destruct C as [C Ch]. repeat (apply andb_prop in C; destruct C as [C ?]).
  split; [lia|]. split; [|apply sort_uniq_sorted].
  apply Forall_forall. intros t Ht. rewrite sort_uniq_in in Ht.
  apply in_flat_map in Ht. destruct Ht as (h & Hh & Ht).
  apply in_flat_map in Ht. destruct Ht as (m & Hm & Ht).
  apply in_map_iff in Ht. destruct Ht as (s & <- & Hs).
  pose proof (in_range_spec _ _ _ _ Ch Hh). pose proof (in_range_spec _ _ _ _ Cm Hm).
  pose proof (in_range_spec _ _ _ _ Cs Hs). lia.
Qed.

Lemma StronglySorted_filter : forall A (R : A -> A -> Prop) (f : A -> bool) l,
  StronglySorted R l -> StronglySorted R (filter f l).
Proof.
  intros A R f l H. induction H as [|a r Hr IH Ha]; cbn [filter]; [constructor|].
  destruct (f a); [|assumption]. constructor; [assumption|]. exact (incl_Forall (incl_filter f r) Ha).
Qed.

Lemma StronglySorted_map : forall A B (R : A -> A -> Prop) (S : B -> B -> Prop) (f : A -> B) l,
  (forall x y, R x y -> S (f x) (f y)) -> StronglySorted R l -> StronglySorted S (map f l).
Proof.
  intros A B R S f l Hf H. induction H as [|a r Hr IH Ha]; cbn [map]; [constructor|].
  constructor; [assumption|]. rewrite Forall_forall in *. intros y Hy.
  apply in_map_iff in Hy. destruct Hy as (x & <- & Hx). apply Hf, Ha, Hx.
Qed.

Lemma ss_flat_map : forall (f : Z -> list Z) (lo hi : Z -> Z) ks,
  StronglySorted Z.lt ks ->
  (forall k, StronglySorted Z.lt (f k)) ->
  (forall k s, In s (f k) -> lo k <= s < hi k) ->
  (forall k j, k < j -> hi k <= lo j) ->
  StronglySorted Z.lt (flat_map f ks).
Proof.
  intros f lo hi ks Hk Hf Hb Hm. induction Hk as [|k r Hr IH Ha]; cbn [flat_map]; [constructor|].
  apply StronglySorted_app_iff. repeat split; [apply Hf | exact IH |].
  intros x y Hx Hy. apply in_flat_map in Hy. destruct Hy as (j & Hj & Hy).
  rewrite Forall_forall in Ha.
  pose proof (Hb k x Hx). pose proof (Hb j y Hy). pose proof (Hm k j (Ha j Hj)). lia.
Qed.

Lemma ss_nodup : forall l, StronglySorted Z.lt l -> NoDup l.
Proof.
  intros l H. induction H as [|a r Hr IH Ha]; constructor; [|assumption].
  intro Hin. rewrite Forall_forall in Ha. specialize (Ha a Hin). lia.
Qed.

Definition occ_in (q : rule) (k : Z) (s : Z) : Prop :=
  exists n t, plo q k <= n < phi q k /\ day_ok q (info_of n) = true /\ In t (q_times q) /\
              s = n * US_DAY + t * 1000000 /\ stamp_ok q s = true.

Lemma day_stamps_info : forall q n,
  day_stamps q (info_of n) =
  if day_ok q (info_of n) then map (fun t => n * US_DAY + t * 1000000) (q_times q) else [].
Proof. intros q n. unfold day_stamps, info_of. destruct (civil_from_days n) as [[y m] d]. reflexivity. Qed.

Lemma chunk_eq : forall q k,
  chunk q k = filter (stamp_ok q)
                (flat_map (fun n => day_stamps q (info_of n)) (zrange (plo q k) (phi q k - plo q k))).
Proof.
  intros q k. unfold chunk. rewrite period_days_spec. f_equal.
  generalize (zrange (plo q k) (phi q k - plo q k)). intro l.
  induction l as [|x r IH]; cbn [map flat_map]; [reflexivity | rewrite IH; reflexivity].
Qed.

Lemma chunk_in : forall q k s, In s (chunk q k) <-> occ_in q k s.
Proof.
  intros q k s. rewrite chunk_eq, filter_In, in_flat_map. unfold occ_in. split.
  - intros ((n & Hn & Hs) & Hok). apply in_zrange in Hn. rewrite day_stamps_info in Hs.
    destruct (day_ok q (info_of n)) eqn:D; [|contradiction].
    apply in_map_iff in Hs. destruct Hs as (t & <- & Ht). exists n, t. repeat split; auto; lia.
  - intros (n & t & Hn & D & Ht & -> & Hok). split; [|assumption].
    exists n. split; [apply in_zrange; lia|]. rewrite day_stamps_info, D. apply in_map_iff. eauto.
Qed.

Lemma occ_in_bounds : forall q k s, rule_ok q -> occ_in q k s -> plo q k * US_DAY <= s < phi q k * US_DAY.
Proof.
  intros q k s (Hi & Ht & Hs) (n & t & Hn & D & Hin & -> & Hok).
  rewrite Forall_forall in Ht. specialize (Ht t Hin). unfold US_DAY. lia.
Qed.

Lemma chunk_sorted : forall q k, rule_ok q -> StronglySorted Z.lt (chunk q k).
Proof.
  intros q k (Hi & Ht & Hs). rewrite chunk_eq. apply StronglySorted_filter.
  apply (ss_flat_map _ (fun n => n * US_DAY) (fun n => (n + 1) * US_DAY)).
  - rewrite zrange_Zseq. apply Zseq_sorted.
  - intro n. rewrite day_stamps_info. destruct (day_ok q (info_of n)); [|constructor].
    apply (StronglySorted_map _ _ Z.lt); [intros; lia | assumption].
  - intros n s Hin. rewrite day_stamps_info in Hin. destruct (day_ok q (info_of n)); [|contradiction].
    apply in_map_iff in Hin. destruct Hin as (t & <- & Hin).
    rewrite Forall_forall in Ht. specialize (Ht t Hin). unfold US_DAY. lia.
  - intros a b Hab. unfold US_DAY. lia.
Qed.

Definition chunks (q : rule) (k : Z) (j : nat) : list Z := flat_map (chunk q) (Zseq k j).

Lemma chunks_in : forall q k j s, In s (chunks q k j) <-> exists k', k <= k' < k + Z.of_nat j /\ occ_in q k' s.
Proof.
  intros q k j s. unfold chunks. rewrite in_flat_map. split.
  - intros (k' & Hk & Hs). apply Zseq_In in Hk. apply chunk_in in Hs. eauto.
  - intros (k' & Hk & Hs). exists k'. split; [apply Zseq_In; assumption | apply chunk_in; assumption].
Qed.

Lemma chunks_sorted : forall q k j, rule_ok q -> StronglySorted Z.lt (chunks q k j).
Proof.
  intros q k j Hq. unfold chunks.
  apply (ss_flat_map _ (fun k => plo q k * US_DAY) (fun k => phi q k * US_DAY)).
  - apply Zseq_sorted.
  - intro. apply chunk_sorted. assumption.
  - intros k' s Hs. apply chunk_in in Hs. apply occ_in_bounds; assumption.
  - intros a b Hab. destruct Hq as (Hi & _). pose proof (period_mono_lt q a b Hi Hab). unfold US_DAY. lia.
Qed.

Definition take (need : option Z) (l : list Z) : list Z :=
  match need with Some c => firstn (Z.to_nat c) l | None => l end.

Lemma take_nil : forall need, take need [] = [].
Proof. intros [c|]; [apply firstn_nil | reflexivity]. Qed.

(* why [gen] stops: `count` is used up by the [have] occurrences scanned so far, `until` lies before
   the day [next] on which the next period begins, or that day is at the horizon *)
Definition stop_reason (q : rule) (H : Z) (need : option Z) (have next : Z) (b : bool) : Prop :=
  (exists c, need = Some c /\ c <= have /\ b = true) \/
  (exists u, q_until q = Some u /\ u < next * US_DAY /\ b = true) \/
  (q_until q = None /\ need = None /\ H <= next /\ b = false).

(* the three tests [gen] makes before it scans period k, with or without fuel *)
Lemma gen_head : forall q H k need (rest : option (list Z * bool)) l b,
  (if (match need with Some c => c <=? 0 | None => false end) then Some ([], true)
   else if (match q_until q with Some u => u <? plo q k * US_DAY | None => false end) then Some ([], true)
   else if (match q_until q, need with None, None => H <=? plo q k | _, _ => false end) then Some ([], false)
   else rest) = Some (l, b) ->
  (l = [] /\ stop_reason q H need 0 (plo q k) b) \/
  (rest = Some (l, b) /\ forall n, need = Some n -> 0 < n).
Proof.
  intros q H k need rest l b G. unfold stop_reason.
  match type of G with (if ?t then _ else _) = _ => destruct t eqn:T1 end.
  { left. injection G as <- <-. split; [reflexivity|]. left.
    destruct need as [c|]; [|discriminate]. exists c. repeat split. lia. }
  match type of G with (if ?t then _ else _) = _ => destruct t eqn:T2 end.
  { left. injection G as <- <-. split; [reflexivity|]. right; left.
    destruct (q_until q) as [u|]; [|discriminate]. exists u. repeat split. lia. }
  match type of G with (if ?t then _ else _) = _ => destruct t eqn:T3 end.
  { left. injection G as <- <-. split; [reflexivity|]. right; right.
    destruct (q_until q); [discriminate|]. destruct need; [discriminate|]. repeat split. lia. }
  right. split; [exact G|]. intros n ->. lia.
Qed.

Lemma gen_spec : forall q H fuel B k need l b,
  gen q H fuel B k need = Some (l, b) ->
  exists j : nat,
    l = take need (chunks q k j) /\
    stop_reason q H need (Z.of_nat (List.length (chunks q k j))) (plo q (k + Z.of_nat j)) b.
Proof.
  intros q H fuel. induction fuel as [|f IH]; intros B k need l b G; cbn [gen] in G;
    apply gen_head in G; destruct G as [[-> Stop]|[G Hn]].
  1, 3: exists 0%nat; rewrite Z.add_0_r; split; [symmetry; apply take_nil | exact Stop].
  - discriminate.
  - destruct (B <? 0); [discriminate|].
    match type of G with context [gen q H f ?B' (k + 1) ?need'] =>
      destruct (gen q H f B' (k + 1) need') as [[l' b']|] eqn:G'; [|discriminate] end.
    injection G as <- <-.
    apply IH in G'. destruct G' as (j & El & Stop).
    exists (S j). replace (k + Z.of_nat (S j)) with (k + 1 + Z.of_nat j) by lia.
    change (chunks q k (S j)) with (chunk q k ++ chunks q (k + 1) j).
    destruct need as [n|]; cbn [option_map take] in *.
    + (* count: the first n of this period, then the first n - (what this period gave) of the rest *)
      specialize (Hn n eq_refl).
      pose proof (firstn_length (Z.to_nat n) (chunk q k)) as Hlen.
      split; [rewrite firstn_app, El; do 2 f_equal; lia|].
      destruct Stop as [(c0 & Ec & Hc & Hb)|[S2|(_ & X & _)]]; [left | right; left; exact S2 | discriminate].
      exists n. injection Ec as <-. rewrite app_length. repeat split; [lia | exact Hb].
    + split; [rewrite El; reflexivity|].
      destruct Stop as [(c0 & Ec & _)|[S2|S3]]; [discriminate | right; left; exact S2 | right; right; exact S3].
Qed.

(* an occurrence of the rule: in some period k >= 0 of the interval grid, on a day that passes every
   filter, at one of the rule's times, not before dtstart and not after until *)
Definition is_occ (q : rule) (s : Z) : Prop := exists k, 0 <= k /\ occ_in q k s.

Theorem gen_exact : forall q H F B l b, rule_ok q ->
  gen q H F B 0 (q_count q) = Some (l, b) ->
  StronglySorted Z.lt l /\
  (forall s, In s l -> is_occ q s) /\
  (forall c, q_count q = Some c -> Z.of_nat (List.length l) <= Z.max c 0) /\
  (forall s, is_occ q s ->
     In s l \/
     (exists c, q_count q = Some c /\ Z.of_nat (List.length l) = Z.max c 0 /\ forall x, In x l -> x < s) \/
     (b = false /\ H * US_DAY <= s)).
Proof.
  intros q H F B l b Hq G. apply gen_spec in G. destruct G as (j & El & Stop).
  rewrite Z.add_0_l in Stop.
  pose proof (chunks_sorted q 0 j Hq) as Hall. set (all := chunks q 0 j) in *.
  assert (Hsub : forall s, In s l -> In s all).
  { intros s Hs. rewrite El in Hs. destruct (q_count q); [eapply In_firstn|]; exact Hs. }
  split; [|split; [|split]].
  - rewrite El. destruct (q_count q); [apply firstn_StronglySorted|]; assumption.
  - intros s Hs. apply Hsub, chunks_in in Hs. destruct Hs as (k' & Hk & Ho). exists k'. split; [lia | assumption].
  - intros c Ec. rewrite El, Ec. cbn [take]. pose proof (firstn_le_length (Z.to_nat c) all). lia.
  - intros s (k' & Hk' & Ho).
    pose proof (occ_in_bounds q k' s Hq Ho) as Bs.
    destruct Hq as (Hi & Hq2).
    destruct (Z.ltb_spec k' (Z.of_nat j)) as [Hlt|Hge].
    + (* a scanned period: s is there, and if `count` cut it off, the count-th lies before it *)
      assert (Hin : In s all) by (apply chunks_in; exists k'; split; [lia | assumption]).
      destruct (q_count q) as [c|] eqn:Ec; cbn [take] in El; [|left; rewrite El; assumption].
      rewrite El. rewrite <- (firstn_skipn (Z.to_nat c) all) in Hin, Hall.
      apply in_app_or in Hin. destruct Hin as [Hin|Hin]; [left; exact Hin|].
      right; left. exists c. split; [reflexivity|].
      apply StronglySorted_app_iff in Hall. destruct Hall as (_ & _ & Hlt').
      split; [|intros x Hx; apply Hlt'; assumption].
      rewrite firstn_length. destruct (Nat.le_gt_cases (List.length all) (Z.to_nat c)); [|lia].
      rewrite skipn_all2 in Hin by assumption. contradiction.
    + (* a period that was not scanned: why did the scan stop? *)
      assert (Hp : plo q (Z.of_nat j) <= plo q k') by (apply plo_mono; lia).
      destruct Stop as [(c & Ec & Hc & Hb)|[(u & Eu & Hu & Hb)|(Eu & En & HH & Hb)]].
      * right; left. exists c. rewrite Ec in El. cbn [take] in El. split; [assumption|].
        split; [rewrite El, firstn_length; lia|].
        intros x Hx. apply Hsub, chunks_in in Hx. destruct Hx as (k2 & Hk2 & Ho2).
        pose proof (occ_in_bounds q k2 x (conj Hi Hq2) Ho2).
        pose proof (period_mono_lt q k2 k' Hi ltac:(lia)). unfold US_DAY in *. lia.
      * exfalso. destruct Ho as (n & t & _ & _ & _ & _ & Hok). unfold stamp_ok in Hok. rewrite Eu in Hok.
        unfold US_DAY in *. lia.
      * right; right. split; [assumption|]. unfold US_DAY in *. lia.
Qed.

(* the interval grid, declaratively: which days lie in some period k >= 0 *)
Definition aligned (q : rule) (n : Z) : Prop :=
  let '(y, m, _) := civil_from_days n in
  let iv := q_interval q in
  if q_freq q =? 0 then q_y0 q <= y /\ (y - q_y0 q) mod iv = 0
  else if q_freq q =? 1 then
    let mi := 12 * y + (m - 1) in let mi0 := 12 * q_y0 q + (q_m0 q - 1) in
    mi0 <= mi /\ (mi - mi0) mod iv = 0
  else if q_freq q =? 2 then
    let s := q_d0 q - (weekday (q_d0 q) - q_wkst q) mod 7 in
    s <= n /\ ((n - s) / 7) mod iv = 0
  else q_d0 q <= n /\ (n - q_d0 q) mod iv = 0.

Lemma grid_iff : forall a iv x, 1 <= iv ->
  (a <= x /\ (x - a) mod iv = 0 <-> exists k, 0 <= k /\ x = a + k * iv).
Proof.
  intros a iv x Hi. split.
  - intros [H1 H2]. exists ((x - a) / iv). split; [apply Z.div_pos; lia|].
    pose proof (Z.div_mod (x - a) iv ltac:(lia)). lia.
  - intros (k & Hk & ->). pose proof (Z.mul_nonneg_nonneg k iv). split; [lia|].
    replace (a + k * iv - a) with (k * iv) by lia. apply Z.mod_mul. lia.
Qed.

Lemma year_range : forall y n, days_from_civil y 1 1 <= n < days_from_civil (y + 1) 1 1 <-> year_of n = y.
Proof.
  intros y n. rewrite yfirst_succ. unfold days_from_civil. rewrite dbm_1. split.
  - intro H. apply year_unique. lia.
  - intros <-. pose proof (year_of_bracket n). lia.
Qed.

Lemma month_range : forall mi n y m d, civil_from_days n = (y, m, d) ->
  (days_from_civil (mi / 12) (mi mod 12 + 1) 1 <= n
     < days_from_civil (mi / 12) (mi mod 12 + 1) 1 + month_len (mi / 12) (mi mod 12 + 1)
   <-> 12 * y + (m - 1) = mi).
Proof.
  intros mi n y m d E.
  destruct (civil_of_days _ _ _ _ E) as (Hm & Hd & Hn & _).
  pose proof (euclid mi 12 eq_refl) as M.
  split.
  - intro H.
    assert (E2 : civil_from_days n = (mi / 12, mi mod 12 + 1, n - days_from_civil (mi / 12) (mi mod 12 + 1) 1 + 1)).
    { rewrite <- (days_of_civil (mi / 12) (mi mod 12 + 1) (n - days_from_civil (mi / 12) (mi mod 12 + 1) 1 + 1)) by lia.
      f_equal. rewrite (dfc_first _ _ (n - _ + 1)). lia. }
    rewrite E in E2. injection E2 as -> -> _. lia.
  - intros <-. pose proof (euclid (12 * y + (m - 1)) 12 eq_refl).
    replace ((12 * y + (m - 1)) / 12) with y by lia.
    replace ((12 * y + (m - 1)) mod 12 + 1) with m by lia.
    rewrite <- Hn. rewrite (dfc_first y m d). lia.
Qed.

Lemma aligned_iff : forall q n, 1 <= q_interval q ->
  (aligned q n <-> exists k, 0 <= k /\ plo q k <= n < phi q k).
Proof.
  intros q n Hi. unfold aligned, plo, phi, period, start_ym, start_day. cbn [fst snd].
  destruct (civil_from_days n) as [[y m] d] eqn:E.
  destruct (q_freq q =? 0); cbn [fst snd].
  - rewrite grid_iff by assumption. setoid_rewrite year_range.
    destruct (civil_of_days _ _ _ _ E) as (_ & _ & _ & <-). reflexivity.
  - destruct (q_freq q =? 1); cbn [fst snd].
    + rewrite grid_iff by assumption. setoid_rewrite (month_range _ n y m d E). reflexivity.
    + destruct (q_freq q =? 2); cbn [fst snd].
      * (* w, the week of n counted from the week of the start, runs through the grid 0, iv, 2 iv, ... *)
        set (s := q_d0 q - (weekday (q_d0 q) - q_wkst q) mod 7). clearbody s.
        pose proof (euclid (n - s) 7 eq_refl) as W. set (w := (n - s) / 7) in *. clearbody w.
        transitivity (0 <= w /\ (w - 0) mod q_interval q = 0).
        { rewrite Z.sub_0_r. split; intros [A B]; (split; [lia | exact B]). }
        rewrite grid_iff by assumption. split; intros (k & Hk & H); exists k; (split; [assumption | lia]).
      * rewrite grid_iff by assumption.
        split; intros (k & Hk & H); exists k; (split; [assumption | lia]).
Qed.

Definition with_r_until (u : option dt) (r : rrule_args) : rrule_args :=
  mkRR (r_freq r) (r_dtstart r) (r_interval r) (r_wkst r) (r_count r) u (r_bysetpos r)
       (r_bymonth r) (r_bymonthday r) (r_byyearday r) (r_byeaster r) (r_byweekno r) (r_byweekday r)
       (r_byhour r) (r_byminute r) (r_bysecond r) (r_cache r).

Theorem until_only_instant : forall r u u',
  d_tz u <> None -> d_tz u' <> None -> inst_us u = inst_us u' ->
  normalize (with_r_until (Some u') r) = normalize (with_r_until (Some u) r).
Proof.
  intros r [d x [z|]] [d' x' [z'|]] Hu Hu' E; try (cbn [d_tz] in Hu, Hu'; congruence).
  unfold normalize, with_r_until.
  cbn [r_dtstart r_interval r_wkst r_freq r_byweekno r_byyearday r_bymonthday r_byweekday r_byeaster
       r_bymonth r_byhour r_byminute r_bysecond r_count r_until r_bysetpos d_tz].
  rewrite E. reflexivity.
Qed.

Lemma union_all_in : forall y parts, In y (union_all parts) <-> exists p, In p parts /\ In y (fst p).
Proof.
  intros y parts. unfold union_all. induction parts as [|p r IH]; cbn [fold_right In].
  - split; [contradiction | intros (p & [] & _)].
  - rewrite fold_insert_in, IH. split.
    + intros [H|(p' & Hp & Hy)]; [exists p; auto | exists p'; auto].
    + intros (p' & [->|Hp] & Hy); [left; assumption | right; exists p'; auto].
Qed.

Lemma union_all_sorted : forall parts, StronglySorted Z.lt (union_all parts).
Proof.
  intro parts. unfold union_all. induction parts as [|p r IH]; cbn [fold_right]; [constructor|].
  apply fold_insert_sorted. assumption.
Qed.

Lemma memz_in : forall x l, memz x l = true <-> In x l.
Proof.
  intros x l. unfold memz. rewrite existsb_exists. split.
  - intros (y & Hy & E). apply Z.eqb_eq in E. subst. assumption.
  - intro H. exists x. split; [assumption | apply Z.eqb_refl].
Qed.

Lemma lastz_max : forall l d x, StronglySorted Z.lt l -> In x l -> x <= lastz d l.
Proof.
  induction l as [|a r IH]; intros d x Hs Hx; [contradiction|].
  cbn [lastz]. apply StronglySorted_inv in Hs. destruct Hs as [Hs Ha].
  destruct Hx as [->|Hx]; [|apply IH; assumption].
  destruct r as [|b r']; [cbn; lia|]. rewrite Forall_forall in Ha.
  specialize (IH x b Hs (or_introl eq_refl)). specialize (Ha b (or_introl eq_refl)). lia.
Qed.

Theorem combine_spec : forall H parts l c,
  combine H parts = Some (l, c) ->
  exists incs excs H',
    parts H true = Some incs /\ parts H' false = Some excs /\ H <= H' /\ c = forallb snd incs /\
    StronglySorted Z.lt l /\
    (forall s, In s l <-> ((exists p, In p incs /\ In s (fst p)) /\ (c = true \/ s < H * US_DAY) /\
                           ~ (exists p, In p excs /\ In s (fst p)))) /\
    (forall s, In s l -> s < H' * US_DAY).
Proof.
  intros H parts l c G. unfold combine in G.
  destruct (parts H true) as [incs|] eqn:Ei; [|discriminate].
  set (cpl := forallb snd incs) in *.
  set (r1 := if cpl then union_all incs else filter (fun s => s <? H * US_DAY) (union_all incs)) in *.
  set (H' := if cpl then Z.max H (lastz 0 r1 / US_DAY + 1) else H) in *.
  destruct (parts H' false) as [excs|] eqn:Ee; [|discriminate].
  injection G as <- <-.
  assert (S1 : StronglySorted Z.lt r1).
  { subst r1. destruct cpl; [|apply StronglySorted_filter]; apply union_all_sorted. }
  assert (I1 : forall s, In s r1 <-> (exists p, In p incs /\ In s (fst p)) /\ (cpl = true \/ s < H * US_DAY)).
  { intro s. subst r1. destruct cpl.
    - rewrite union_all_in. clear. intuition.
    - rewrite filter_In, union_all_in, Z.ltb_lt.
      split; [intros [A B]; auto | intros [A [B|B]]; [discriminate | auto]]. }
  exists incs, excs, H'. split; [reflexivity|]. split; [assumption|].
  split; [subst H'; destruct cpl; lia|]. split; [reflexivity|].
  split; [apply StronglySorted_filter; assumption|]. split.
  - intro s. rewrite filter_In, negb_true_iff, I1, <- not_true_iff_false, memz_in, union_all_in. clear. tauto.
  - intros s Hs. apply filter_In in Hs. destruct Hs as [Hs _].
    subst H'. destruct cpl eqn:C.
    + (* the day after the day of the last included stamp *)
      pose proof (lastz_max r1 0 s S1 Hs) as L. pose proof (euclid (lastz 0 r1) US_DAY eq_refl).
      unfold US_DAY in *. lia.
    + apply I1 in Hs. destruct Hs as [_ [X|X]]; [discriminate | assumption].
Qed.

Lemma dt_eqb_eq : forall a b, dt_eqb a b = true -> a = b.
Proof.
  intros [d1 u1 t1] [d2 u2 t2] H. unfold dt_eqb in H. cbn [d_days d_us d_tz] in H.
  rewrite !andb_true_iff, !Z.eqb_eq in H. destruct H as [[-> ->] T].
  f_equal. destruct t1, t2; cbn in T; try discriminate; [apply Z.eqb_eq in T; subst|]; reflexivity.
Qed.

Lemma list_eqb_eq : forall A (eqb : A -> A -> bool), (forall a b, eqb a b = true -> a = b) ->
  forall l1 l2, list_eqb eqb l1 l2 = true -> l1 = l2.
Proof.
  intros A eqb He. induction l1 as [|a r IH]; intros [|b r'] H; cbn [list_eqb] in H; try discriminate; [reflexivity|].
  apply andb_prop in H. destruct H as [H1 H2]. f_equal; [apply He | apply IH]; assumption.
Qed.

(* what [rs_occ] does with one call and with the calls of one kind (written out inside its recursion,
   where the nested rule sets are), as functions of their own: [rs_occ_unfold] is stated with them *)
Definition part_of (F : nat) (tz : Z) (H : Z) (c : call) : option (list Z * bool) :=
  match c with
  | CRule _ x => if option_eqb Z.eqb (d_tz (r_dtstart x)) (Some tz) then rr_occ F H x else None
  | CSet _ s => rs_occ F H tz s
  | CDate _ d => if option_eqb Z.eqb (d_tz d) (Some tz) && (0 <=? d_us d) && (d_us d <? US_DAY)
                 then Some ([d_days d * US_DAY + d_us d], true) else None
  end.

Fixpoint parts_of (F : nat) (tz : Z) (H : Z) (want_incl : bool) (calls : list call)
  : option (list (list Z * bool)) :=
  match calls with
  | [] => Some []
  | c :: r =>
    if Bool.eqb (is_incl (call_method c)) want_incl
    then match part_of F tz H c, parts_of F tz H want_incl r with
         | Some p, Some ps => Some (p :: ps)
         | _, _ => None
         end
    else parts_of F tz H want_incl r
  end.

Lemma combine_ext : forall H f g, (forall H' w, f H' w = g H' w) -> combine H f = combine H g.
Proof. intros H f g E. unfold combine. rewrite E. destruct (g H true); [|reflexivity]. rewrite E. reflexivity. Qed.

Theorem rs_occ_unfold : forall F H tz c calls,
  rs_occ F H tz (RS c calls) = combine H (fun H' w => parts_of F tz H' w calls).
Proof.
  intros F H tz c calls. cbn [rs_occ]. apply combine_ext. intros H' w.
  induction calls as [|x r IH]; [reflexivity|].
  cbn [parts_of]. rewrite <- IH. destruct x; reflexivity.
Qed.
