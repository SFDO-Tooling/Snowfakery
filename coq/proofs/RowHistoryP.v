(* Plain references: nickname ordinals are dense (NickInv), so a draw inside the requested
   interval always finds its row; by table name the draw is the id itself.
   Unique references: a context is a range object of RandRange.v together with the record of
   what it has produced (RandRangeP.Drawn); unique_draw_spec says what one draw does to it.
   The table of call sites keeps one such context per site and parent row (SiteInv). *)
From Coq Require Import ZArith List Lia Bool Permutation ZifyBool.
From SFV Require Import Base RandRange RowHistory.
From SFV.P Require Import BaseP RandRangeP.
Import ListNotations. Open Scope Z_scope.

Lemma lookupZ_assign k k2 v l :
  lookupZ k2 (assignZ k v l) = if String.eqb k2 k then Some v else lookupZ k2 l.
Proof.
  induction l as [|[k' v'] r IH]; cbn [assignZ lookupZ]; [reflexivity|].
  destruct (String.eqb_spec k k') as [<-|Hne]; cbn [lookupZ].
  - destruct (String.eqb k2 k); reflexivity.
  - destruct (String.eqb_spec k2 k') as [->|_]; [|exact IH].
    apply String.eqb_neq in Hne. rewrite String.eqb_sym, Hne. reflexivity.
Qed.

Lemma get0_assign k k2 v l : get0 k2 (assignZ k v l) = if String.eqb k2 k then v else get0 k2 l.
Proof. unfold get0. rewrite lookupZ_assign. destruct (String.eqb k2 k); reflexivity. Qed.

Lemma save_row_hrows h t n i :
  hrows (save_row h t n i) =
  hrows h ++ [mkHrow t i n (match n with Some m => get0 m (nc h) + 1 | None => 0 end)].
Proof. destruct n; reflexivity. Qed.

Lemma save_row_tc h t n i : tc (save_row h t n i) = assignZ t i (tc h).
Proof. destruct n; reflexivity. Qed.

Definition NickInv (h : rh) : Prop :=
  forall n,
    0 <= get0 n (nc h) /\
    (forall d, 1 <= d <= get0 n (nc h) ->
       exists r, In r (hrows h) /\ h_nick r = Some n /\ h_nid r = d) /\
    (forall r, In r (hrows h) -> h_nick r = Some n -> 1 <= h_nid r <= get0 n (nc h)).

Lemma NickInv_init counters names : NickInv (rh_init counters names).
Proof. intros n. cbn. splits; [lia|lia|intros r []]. Qed.

Lemma NickInv_save h t nick i : NickInv h -> NickInv (save_row h t nick i).
Proof.
  intros H n. destruct (H n) as (H0 & H1 & H2). rewrite save_row_hrows.
  (* the counter of n moves exactly when the new row carries n: by one, to the row's ordinal *)
  assert (Hc : get0 n (nc (save_row h t nick i)) = get0 n (nc h) /\ nick <> Some n \/
               get0 n (nc (save_row h t nick i)) = get0 n (nc h) + 1 /\ nick = Some n).
  { destruct nick as [m|]; cbn [save_row nc]; [|left; split; [reflexivity|discriminate]].
    rewrite get0_assign. destruct (String.eqb_spec n m) as [->|Hne]; [right|left]; split; congruence. }
  splits.
  - lia.
  - intros d Hd. destruct (Z_le_dec d (get0 n (nc h))) as [Hle|Hgt].
    + destruct (H1 d) as (r & Hr & Hrest); [lia|]. exists r. split; [apply in_or_app; auto|exact Hrest].
    + destruct Hc as [[Hc _]|[Hc ->]]; [lia|]. eexists. split; [apply in_elt|]. split; [reflexivity|]. cbn [h_nid]. lia.
  - intros r Hr Hn. apply in_app_or in Hr. destruct Hr as [Hr|[<-|[]]].
    + specialize (H2 r Hr Hn). lia.
    + cbn [h_nick h_nid] in *. destruct Hc as [[_ Hc]|[Hc ->]]; [contradiction|]. lia.
Qed.

Definition NickTables (h : rh) : Prop :=
  forall r n, In r (hrows h) -> h_nick r = Some n ->
    match lookupS n (n2t h) with Some t => h_table r = t | None => True end.

Lemma find_nick_row_spec rows table nick d :
  match find_nick_row rows table nick d with
  | Some i => exists r, In r rows /\ h_table r = table /\ h_nick r = Some nick /\ h_nid r = d /\ h_id r = i
  | None => forall r, In r rows -> ~ (h_table r = table /\ h_nick r = Some nick /\ h_nid r = d)
  end.
Proof.
  induction rows as [|r rest IH]; cbn [find_nick_row]; [intros r []|].
  destruct (String.eqb (h_table r) table && _ && (h_nid r =? d)) eqn:E.
  - apply andb_true_iff in E. destruct E as [E E3]. apply andb_true_iff in E. destruct E as [E1 E2].
    exists r. splits; [left; reflexivity|apply String.eqb_eq; exact E1| |lia|reflexivity].
    destruct (h_nick r) as [m|]; [|discriminate]. apply String.eqb_eq in E2. congruence.
  - destruct (find_nick_row rest table nick d) as [i|].
    + destruct IH as (r' & Hin & Hrest). exists r'. split; [right; exact Hin|exact Hrest].
    + intros r0 [<-|Hin]; [|exact (IH r0 Hin)]. intros (Ht & Hn & Hd).
      rewrite Ht, Hn, Hd, !String.eqb_refl, Z.eqb_refl in E. discriminate.
Qed.

Lemma nick_resolve_sound h name t d tbl i :
  resolve_draw h (Some name) t d = Ok (tbl, i) ->
  tbl = t /\ exists r, In r (hrows h) /\ h_table r = t /\ h_nick r = Some name /\ h_nid r = d /\ h_id r = i.
Proof.
  unfold resolve_draw. pose proof (find_nick_row_spec (hrows h) t name d) as S.
  destruct (find_nick_row (hrows h) t name d) as [id|]; [|discriminate].
  intros H. injection H as <- <-. split; [reflexivity|exact S].
Qed.

Theorem nick_ref_sound h name t d tbl i :
  lookupS name (n2t h) = Some t ->
  random_ref h name d = Ok (tbl, i) ->
  tbl = t /\ exists r, In r (hrows h) /\ h_table r = t /\ h_nick r = Some name /\ h_id r = i.
Proof.
  intros Hl H. unfold random_ref, ref_range in H. rewrite Hl in H.
  destruct (get0 name (nc h) =? 0); [discriminate|]. cbn [bind] in H.
  destruct (_ && _); [|discriminate].
  destruct (nick_resolve_sound _ _ _ _ _ _ H) as (-> & r & Hin & Ht & Hn & _ & Hid). eauto 6.
Qed.

Theorem nick_ref_total h name t :
  NickInv h -> NickTables h -> lookupS name (n2t h) = Some t ->
  get0 name (nc h) <> 0 -> 0 <= get0 name (lnc h) ->
  exists lo hi, ref_range h name = Ok (Some name, t, lo, hi) /\ 1 <= lo <= hi /\ hi = get0 name (nc h) /\
    forall d, lo <= d <= hi -> exists i, random_ref h name d = Ok (t, i).
Proof.
  intros HI HT Hl Hnz Hlc. destruct (HI name) as (H0 & H1 & _).
  unfold random_ref, ref_range. rewrite Hl. destruct (get0 name (nc h) =? 0) eqn:E; [lia|].
  set (m := get0 name (nc h)) in *. set (min0 := get0 name (lnc h) + 1).
  exists (if m <? min0 then 1 else min0), m.
  assert (Hb : 1 <= (if m <? min0 then 1 else min0) <= m) by (destruct (m <? min0) eqn:E2; lia).
  splits; try reflexivity; try lia.
  intros d Hd. cbn [bind]. replace (_ && _) with true by lia. unfold resolve_draw.
  destruct (H1 d ltac:(lia)) as (r & Hin & Hn & Hnid).
  pose proof (HT r name Hin Hn) as Htab. rewrite Hl in Htab.
  pose proof (find_nick_row_spec (hrows h) t name d) as S.
  destruct (find_nick_row (hrows h) t name d) as [i|]; [eauto|]. destruct (S r Hin). auto.
Qed.

Theorem table_ref_range h name d tbl i :
  lookupS name (n2t h) = None ->
  random_ref h name d = Ok (tbl, i) ->
  tbl = name /\ i = d /\ exists m, lookupZ name (tc h) = Some m /\ d <= m /\
    (if m <? get0 name (lc h) + 1 then 1 <= d else get0 name (lc h) < d).
Proof.
  intros Hl H. unfold random_ref, ref_range in H. rewrite Hl in H.
  destruct (lookupZ name (tc h)) as [m|]; [|discriminate].
  destruct (m =? 0); [discriminate|]. cbn [bind] in H.
  destruct (_ && _) eqn:E; [|discriminate]. injection H as <- <-.
  splits; try reflexivity. exists m. split; [reflexivity|].
  destruct (m <? get0 name (lc h) + 1); lia.
Qed.

(* each id of T is the last saved one plus 1: false as soon as a forward reference has
   reserved an id (C10_refuted_forward_reserved) *)
Fixpoint ordered_for (T : string) (h : rh) (ops : list hop) : Prop :=
  match ops with
  | [] => True
  | HSave t n i :: r =>
    (t = T -> i = get0 T (tc h) + 1) /\ n <> Some T /\ ordered_for T (save_row h t n i) r
  | HReset :: r => ordered_for T (reset_locals h) r
  | _ :: r => ordered_for T h r
  end.

Definition dense_from (T : string) (base : Z) (h : rh) : Prop :=
  forall i, base < i <= get0 T (tc h) -> exists r, In r (hrows h) /\ h_table r = T /\ h_id r = i.

Theorem ordered_dense T base ops : forall h,
  dense_from T base h -> ordered_for T h ops -> dense_from T base (apply_ops h ops).
Proof.
  induction ops as [|[t n i0| |name d|name] ops IH]; intros h HD HO; cbn [apply_ops ordered_for] in *;
    [exact HD| |apply IH; assumption..].
  destruct HO as (Hi & _ & HO). apply IH; [|exact HO].
  intros i Hb. rewrite save_row_tc, get0_assign in Hb.
  assert (Hold : base < i <= get0 T (tc h) ->
                 exists r, In r (hrows (save_row h t n i0)) /\ h_table r = T /\ h_id r = i).
  { intros Hb'. destruct (HD i Hb') as (r & Hr & Hrest). exists r. split; [|exact Hrest].
    rewrite save_row_hrows. apply in_or_app. auto. }
  destruct (String.eqb_spec T t) as [<-|Hne]; [|exact (Hold Hb)].
  destruct (Z.eq_dec i i0) as [->|Hne]; [|apply Hold; specialize (Hi eq_refl); lia].
  rewrite save_row_hrows. eexists. split; [apply in_elt|]. split; reflexivity.
Qed.

Theorem table_ref_dense T base h d tbl i :
  dense_from T base h -> lookupS T (n2t h) = None -> random_ref h T d = Ok (tbl, i) ->
  tbl = T /\ ((exists r, In r (hrows h) /\ h_table r = T /\ h_id r = i) \/ i <= base).
Proof.
  intros HD Hl H. destruct (table_ref_range _ _ _ _ _ Hl H) as (-> & -> & m & Hm & Hle & _).
  split; [reflexivity|]. destruct (Z_le_dec d base) as [Hb|Hb]; [right; exact Hb|left].
  apply HD. unfold get0. rewrite Hm. lia.
Qed.

Lemma ref_range_sc_local h name : ref_range_sc h name false = ref_range h name.
Proof. reflexivity. Qed.

Lemma ref_range_sc_global h name nick table lo hi :
  ref_range_sc h name true = Ok (nick, table, lo, hi) -> lo = 1.
Proof.
  unfold ref_range_sc. destruct (lookupS name (n2t h)) as [t|].
  - destruct (get0 name (nc h) =? 0); [discriminate|]. intros H. injection H as _ _ <- _.
    destruct (get0 name (nc h) <? 1); reflexivity.
  - destruct (lookupZ name (tc h)) as [m|]; [|discriminate].
    destruct (m =? 0); [discriminate|]. intros H. injection H as _ _ <- _.
    destruct (m <? 1); reflexivity.
Qed.

Lemma unique_target_as_plain h name nick table lo hi d :
  ref_range_sc h name false = Ok (nick, table, lo, hi) -> lo <= d <= hi ->
  random_ref h name d = resolve_draw h nick table d.
Proof.
  intros H Hd. rewrite ref_range_sc_local in H. unfold random_ref. rewrite H. cbn [bind].
  replace (_ && _) with true by lia. reflexivity.
Qed.

Definition CtxInv (c : uctx) (old cur : list Z) : Prop :=
  match c with None => old = [] /\ cur = [] | Some u => Drawn u old cur end.

Lemma CtxInv_nodup c old cur : CtxInv c old cur -> NoDup (old ++ cur).
Proof. destruct c; [intros H; apply (Drawn_facts _ _ _ H)|intros [-> ->]; constructor]. Qed.

Lemma CtxInv_with_oracle c o old cur :
  CtxInv c old cur -> CtxInv (option_map (fun u => with_oracle u o) c) old cur.
Proof.
  destruct c as [u|]; [|auto]. intros (prev & em & [] & H).
  exists prev, em. split; [constructor; assumption|exact H].
Qed.

Lemma unique_draw_spec c old cur lo hi o :
  CtxInv c old cur ->
  match unique_draw c lo hi o with
  | Ok (d, u1) => lo <= d <= hi /\ ~ In d (old ++ cur) /\
                  if uref_moves c lo then Drawn u1 (old ++ cur) [d] else Drawn u1 old (cur ++ [d])
  | Err (DGE _) => Permutation cur (Zseq lo (Z.to_nat (hi + 1 - lo)))
  | Err _ => True
  end.
Proof.
  intros HC. unfold unique_draw.
  set (r0 := match c with None => _ | Some _ => _ end).
  (* the range the value is asked of, and what it has produced *)
  assert (H0 : match r0 with
               | Ok u0 => u_start u0 = lo /\ u_cur_max u0 = hi + 1 /\
                          if uref_moves c lo then Drawn u0 (old ++ cur) [] else Drawn u0 old cur
               | Err e => e = Internal "AssertionError"
               end).
  { subst r0. destruct c as [u|]; cbn [uref_moves].
    - pose proof (urr_set_inv _ _ _ lo (hi + 1) HC) as S.
      destruct (urr_set_new_range u lo (hi + 1)); [|exact S].
      destruct (lo =? u_start u); cbn [negb]; tauto.
    - destruct HC as [-> ->]. apply Drawn_init. }
  destruct r0 as [u0|e]; cbn [bind]; [|subst e; exact I].
  destruct H0 as (Hs & Hc & HD0).
  destruct (uref_moves c lo); pose proof (Drawn_next _ _ _ HD0) as S; rewrite Hs, Hc in S.
  - destruct (urr_next u0) as [[[d|] u1]|e]; cbn [bind]; [| |subst e; exact I].
    + rewrite app_nil_r in S. destruct S as [Hr S]. split; [lia|exact S].
    + (* a range that has just moved is not exhausted *)
      destruct (Drawn_facts _ _ _ HD0) as (_ & _ & Hord).
      apply Permutation_length in S. rewrite Zseq_length in S. cbn [length] in S. lia.
  - destruct (urr_next u0) as [[[d|] u1]|e]; cbn [bind]; [|exact S|subst e; exact I].
    destruct S as [Hr S]. split; [lia|exact S].
Qed.

Fixpoint uchain (u : uctx) (reqs : list (Z * Z)) (oracle : list (Z * Z)) : result (list Z) :=
  match reqs with
  | [] => Ok []
  | (a, b) :: r =>
    do '(v, u1) <- unique_draw u a b oracle;
    do rest <- uchain (Some u1) r (u_oracle u1);
    Ok (v :: rest)
  end.

Theorem uchain_no_repeat reqs : forall c oracle old cur vs,
  CtxInv c old cur -> uchain c reqs oracle = Ok vs -> NoDup ((old ++ cur) ++ vs).
Proof.
  induction reqs as [|[a b] r IH]; intros c oracle old cur vs HC H; cbn [uchain] in H.
  - injection H as <-. rewrite app_nil_r. exact (CtxInv_nodup _ _ _ HC).
  - pose proof (unique_draw_spec _ _ _ a b oracle HC) as S.
    destruct (unique_draw c a b oracle) as [[v u1]|e]; [|discriminate]. cbn [bind] in H.
    destruct (uchain (Some u1) r (u_oracle u1)) as [rest|e] eqn:E; [|discriminate]. injection H as <-.
    destruct S as (_ & _ & HD). change (v :: rest) with ([v] ++ rest). rewrite app_assoc.
    destruct (uref_moves c a); [|rewrite <- (app_assoc old)]; exact (IH (Some u1) _ _ _ _ HD E).
Qed.

(* CtxInv (s_ctx st) (s_old st) (s_cur st) written out; SiteInv_nodup and site_put_inv use
   it as such, by conversion *)
Definition SiteInv (st : sitest) : Prop :=
  match s_ctx st with
  | None => s_old st = [] /\ s_cur st = []
  | Some u => exists prev em,
      Uinv u prev em /\
      Permutation prev (Zseq (u_start u) (Z.to_nat (u_min u - u_start u))) /\
      Permutation (s_cur st) (prev ++ em) /\
      NoDup (s_old st) /\ (forall v, In v (s_old st) -> v < u_start u)
  end.

Definition SitesInv (ss : sites) : Prop := forall s st, lookupN s ss = Some st -> SiteInv st.

Lemma SitesInv_nil : SitesInv [].
Proof. intros s st H. discriminate. Qed.

Lemma SiteInv_nodup st : SiteInv st -> NoDup (s_old st ++ s_cur st).
Proof. apply CtxInv_nodup. Qed.

Lemma lookupN_assign k k2 v l :
  lookupN k2 (assignN k v l) = if k2 =? k then Some v else lookupN k2 l.
Proof.
  induction l as [|[k' v'] r IH]; cbn [assignN lookupN]; [reflexivity|].
  destruct (Z.eqb_spec k k') as [<-|Hne]; cbn [lookupN].
  - destruct (k2 =? k); reflexivity.
  - destruct (Z.eqb_spec k2 k') as [->|_]; [|exact IH]. replace (k' =? k) with false by lia. reflexivity.
Qed.

Lemma SitesInv_assign ss s st : SitesInv ss -> SiteInv st -> SitesInv (assignN s st ss).
Proof.
  intros HI HS s0 st0. rewrite lookupN_assign. destruct (s0 =? s); [|apply HI].
  intros H. injection H as <-. exact HS.
Qed.

Lemma site_get_inv ss s p : SitesInv ss -> SiteInv (site_get ss s p).
Proof.
  intros H. unfold site_get. destruct (lookupN s ss) as [st|] eqn:E.
  - destruct (s_parent st =? p); [exact (H _ _ E)|split; reflexivity].
  - split; reflexivity.
Qed.

Lemma site_get_parent ss s p : s_parent (site_get ss s p) = p.
Proof.
  unfold site_get. destruct (lookupN s ss) as [st|]; [|reflexivity].
  destruct (s_parent st =? p) eqn:E; [lia|reflexivity].
Qed.

Lemma site_get_same ss s p st : lookupN s ss = Some st -> s_parent st = p -> site_get ss s p = st.
Proof. intros Hl Hp. unfold site_get. rewrite Hl. replace (s_parent st =? p) with true by lia. reflexivity. Qed.

Lemma site_get_other ss s p st :
  lookupN s ss = Some st -> s_parent st <> p -> site_get ss s p = mkSite p None [] [].
Proof. intros Hl Hp. unfold site_get. rewrite Hl. replace (s_parent st =? p) with false by lia. reflexivity. Qed.

(* the st' of mstep_uref *)
Definition site_put (st : sitest) (p lo d : Z) (u1 : urr) : sitest :=
  if uref_moves (s_ctx st) lo
  then mkSite p (Some u1) (s_old st ++ s_cur st) [d]
  else mkSite p (Some u1) (s_old st) (s_cur st ++ [d]).

Lemma site_put_parent st p lo d u1 : s_parent (site_put st p lo d u1) = p.
Proof. unfold site_put. destruct (uref_moves _ _); reflexivity. Qed.

Lemma site_put_drawn st p lo d u1 :
  s_old (site_put st p lo d u1) ++ s_cur (site_put st p lo d u1) = (s_old st ++ s_cur st) ++ [d].
Proof. unfold site_put. destruct (uref_moves _ _); cbn [s_old s_cur]; [reflexivity|apply app_assoc]. Qed.

Lemma site_put_inv st p po lo hi d u1 :
  SiteInv st ->
  unique_draw (option_map (fun u => with_oracle u po) (s_ctx st)) lo hi po = Ok (d, u1) ->
  lo <= d <= hi /\ ~ In d (s_old st ++ s_cur st) /\ SiteInv (site_put st p lo d u1).
Proof.
  intros HS H. pose proof (unique_draw_spec _ _ _ lo hi po (CtxInv_with_oracle _ po _ _ HS)) as S.
  rewrite H in S. destruct S as (Hd & Hnin & HD). split; [exact Hd|]. split; [exact Hnin|].
  replace (uref_moves (option_map _ (s_ctx st)) lo) with (uref_moves (s_ctx st) lo) in HD
    by (destruct (s_ctx st); reflexivity).
  unfold site_put. destruct (uref_moves (s_ctx st) lo); exact HD.
Qed.

Lemma mstep_uref_ok h ss orc s p name glob r ss' orc' :
  mstep_uref h ss orc s p name glob = Ok (r, ss', orc') ->
  exists nick table lo hi d u1,
    ref_range_sc h name glob = Ok (nick, table, lo, hi) /\
    unique_draw (option_map (fun u => with_oracle u (pair_up orc)) (s_ctx (site_get ss s p)))
                lo hi (pair_up orc) = Ok (d, u1) /\
    resolve_draw h nick table d = Ok r /\
    ss' = assignN s (site_put (site_get ss s p) p lo d u1) ss.
Proof.
  unfold mstep_uref. destruct (ref_range_sc h name glob) as [[[[nick table] lo] hi]|e]; [|discriminate].
  cbn [bind]. destruct (unique_draw _ lo hi _) as [[d u1]|e] eqn:Ed; [|discriminate]. cbn [bind].
  destruct (resolve_draw h nick table d) as [r0|e] eqn:Er; [|discriminate]. cbn [bind].
  intros H. injection H as <- <- _. exists nick, table, lo, hi, d, u1. auto.
Qed.

Theorem site_step h ss orc s p name glob nick table lo hi t i ss' orc' :
  SitesInv ss ->
  ref_range_sc h name glob = Ok (nick, table, lo, hi) ->
  mstep_uref h ss orc s p name glob = Ok (t, i, ss', orc') ->
  exists d st',
    lo <= d <= hi /\ resolve_draw h nick table d = Ok (t, i) /\
    ~ In d (s_old (site_get ss s p) ++ s_cur (site_get ss s p)) /\
    lookupN s ss' = Some st' /\ s_parent st' = p /\
    s_old st' ++ s_cur st' = (s_old (site_get ss s p) ++ s_cur (site_get ss s p)) ++ [d] /\
    (forall s', s' <> s -> lookupN s' ss' = lookupN s' ss) /\
    SitesInv ss'.
Proof.
  intros HI Hr H. destruct (mstep_uref_ok _ _ _ _ _ _ _ _ _ _ H) as (? & ? & ? & ? & d & u1 & Hr' & Hd & Hres & ->).
  rewrite Hr in Hr'. injection Hr' as <- <- <- <-.
  destruct (site_put_inv _ p _ _ _ _ _ (site_get_inv ss s p HI) Hd) as (Hin & Hnin & HS).
  exists d, (site_put (site_get ss s p) p lo d u1). split; [exact Hin|]. splits; try assumption.
  - rewrite lookupN_assign, Z.eqb_refl. reflexivity.
  - apply site_put_parent.
  - apply site_put_drawn.
  - intros s' Hne. rewrite lookupN_assign. replace (s' =? s) with false by lia. reflexivity.
  - apply SitesInv_assign; assumption.
Qed.

Theorem site_refused h ss orc s p name glob nick table lo hi :
  SitesInv ss ->
  ref_range_sc h name glob = Ok (nick, table, lo, hi) ->
  mstep_uref h ss orc s p name glob = Err (DGE "no-unused-target") ->
  Permutation (s_cur (site_get ss s p)) (Zseq lo (Z.to_nat (hi + 1 - lo))).
Proof.
  intros HI Hr H. unfold mstep_uref in H. rewrite Hr in H. cbn [bind] in H.
  pose proof (unique_draw_spec _ _ _ lo hi (pair_up orc)
                (CtxInv_with_oracle _ (pair_up orc) _ _ (site_get_inv ss s p HI))) as S.
  destruct (unique_draw _ lo hi _) as [[d u1]|e]; cbn [bind] in H.
  - (* resolve_draw fails with an AssertionError only *)
    unfold resolve_draw in H. destruct nick; [destruct (find_nick_row _ _ _ _)|]; discriminate.
  - injection H as ->. exact S.
Qed.

Lemma mstep_sites m op o m1 :
  mstep m op = (o, Some m1) ->
  match op with
  | MURef s p name glob =>
    exists r orc', mstep_uref (m_h m) (m_sites m) (m_orc m) s p name glob = Ok (r, m_sites m1, orc')
  | _ => m_sites m1 = m_sites m
  end.
Proof.
  destruct op as [t n i| |name glob|s p name glob]; cbn [mstep]; intros H.
  - injection H as _ <-. reflexivity.
  - injection H as _ <-. reflexivity.
  - destruct (mstep_ref (m_h m) name glob (m_orc m)) as [res orc']. injection H as _ <-. reflexivity.
  - destruct (mstep_uref _ _ _ s p name glob) as [[[[t i] ss'] orc']|e]; [|discriminate].
    injection H as _ <-. eauto.
Qed.

Lemma mstep_inv m op o m1 :
  SitesInv (m_sites m) -> mstep m op = (o, Some m1) -> SitesInv (m_sites m1).
Proof.
  intros HI H. apply mstep_sites in H.
  destruct op as [| | |s p name glob]; try (rewrite H; exact HI). destruct H as (r & orc' & H).
  destruct (mstep_uref_ok _ _ _ _ _ _ _ _ _ _ H) as (? & ? & lo & hi & d & u1 & _ & Hd & _ & ->).
  apply SitesInv_assign; [exact HI|]. apply (site_put_inv _ p _ _ _ _ _ (site_get_inv _ s p HI) Hd).
Qed.

Theorem mrun_inv ops : forall m, SitesInv (m_sites m) -> SitesInv (m_sites (snd (mrun m ops))).
Proof.
  induction ops as [|op ops IH]; intros m HI; cbn [mrun]; [exact HI|].
  destruct (mstep m op) as [o [m1|]] eqn:E; [|exact HI].
  specialize (IH m1 (mstep_inv _ _ _ _ HI E)).
  destruct (mrun m1 ops) as [os m2]. exact IH.
Qed.

Definition keeps_parent (s p : Z) (op : mop) : Prop :=
  match op with MURef s' p' _ _ => s' = s -> p' = p | _ => True end.

Lemma scope_step m op o m1 s st :
  mstep m op = (o, Some m1) -> keeps_parent s (s_parent st) op ->
  lookupN s (m_sites m) = Some st ->
  exists st' l, lookupN s (m_sites m1) = Some st' /\ s_parent st' = s_parent st /\
                s_old st' ++ s_cur st' = (s_old st ++ s_cur st) ++ l.
Proof.
  intros H Hk Hl. apply mstep_sites in H.
  destruct op as [| | |s' p' name glob]; try (exists st, []; rewrite H, app_nil_r; auto).
  destruct H as (r & orc' & H).
  destruct (mstep_uref_ok _ _ _ _ _ _ _ _ _ _ H) as (? & ? & lo & hi & d & u1 & _ & _ & _ & ->).
  rewrite lookupN_assign. destruct (Z.eqb_spec s s') as [<-|Hne]; [|exists st, []; rewrite app_nil_r; auto].
  (* this site, under the same parent: its entry goes on with one more number *)
  rewrite (Hk eq_refl), (site_get_same _ _ _ _ Hl eq_refl).
  eexists _, [d]. split; [reflexivity|]. split; [apply site_put_parent|apply site_put_drawn].
Qed.

Theorem scope_outlives_iterations ops : forall m s p st,
  SitesInv (m_sites m) -> Forall (keeps_parent s p) ops ->
  lookupN s (m_sites m) = Some st -> s_parent st = p ->
  exists st' l, lookupN s (m_sites (snd (mrun m ops))) = Some st' /\ s_parent st' = p /\
                s_old st' ++ s_cur st' = (s_old st ++ s_cur st) ++ l /\
                NoDup (s_old st' ++ s_cur st').
Proof.
  induction ops as [|op ops IH]; intros m s p st HI Hall Hl <-; cbn [mrun].
  - exists st, []. rewrite app_nil_r. splits; auto. exact (SiteInv_nodup _ (HI _ _ Hl)).
  - apply Forall_cons_iff in Hall. destruct Hall as [Hk Hrest].
    destruct (mstep m op) as [o [m1|]] eqn:E.
    + destruct (scope_step _ _ _ _ _ _ E Hk Hl) as (st1 & l1 & Hl1 & Hp1 & Hlist1).
      rewrite <- Hp1 in Hrest.
      destruct (IH m1 s _ st1 (mstep_inv _ _ _ _ HI E) Hrest Hl1 eq_refl)
        as (st2 & l2 & Hl2 & Hp2 & Hlist2 & Hnd).
      destruct (mrun m1 ops) as [os m2]. cbn [snd] in *.
      exists st2, (l1 ++ l2). splits; [exact Hl2|congruence| |exact Hnd].
      rewrite Hlist2, Hlist1. symmetry. apply app_assoc.
    + exists st, []. rewrite app_nil_r. splits; auto. exact (SiteInv_nodup _ (HI _ _ Hl)).
Qed.

Lemma reset_keeps_sites m :
  mstep m MReset = (ONone, Some (mkM (reset_locals (m_h m)) (m_sites m) (m_orc m))).
Proof. reflexivity. Qed.

(* `parent:` naming a plain value.  get_contextual_state resolves `parent:` with
   field_vars().get(parent): the parent may be an object row or any value a recipe computes (a
   field of the row being built, a variable).  The stored parent is compared with `!=`, so the
   token s_parent stands for the CLASS OF EQUAL parent values (for object rows, which have no
   __eq__: the row itself), never for the Python object that happens to carry the value. *)

Lemma uref_other_parent h ss orc s p' name glob r ss' orc' p :
  mstep_uref h ss orc s p' name glob = Ok (r, ss', orc') -> p <> p' ->
  site_get ss' s p = mkSite p None [] [].
Proof.
  intros H Hne. destruct (mstep_uref_ok _ _ _ _ _ _ _ _ _ _ H) as (? & ? & lo & hi & d & u1 & _ & _ & _ & ->).
  apply (site_get_other _ _ _ (site_put (site_get ss s p') p' lo d u1)).
  - rewrite lookupN_assign, Z.eqb_refl. reflexivity.
  - rewrite site_put_parent. congruence.
Qed.

Theorem site_outcome_local h ss1 ss2 orc s p name glob :
  site_get ss1 s p = site_get ss2 s p ->
  match mstep_uref h ss1 orc s p name glob, mstep_uref h ss2 orc s p name glob with
  | Ok (r1, ss1', o1), Ok (r2, ss2', o2) => r1 = r2 /\ o1 = o2 /\ lookupN s ss1' = lookupN s ss2'
  | Err e1, Err e2 => e1 = e2
  | _, _ => False
  end.
Proof.
  intros H. unfold mstep_uref. rewrite H.
  destruct (ref_range_sc h name glob) as [[[[nick table] lo] hi]|e]; cbn [bind]; [|reflexivity].
  destruct (unique_draw _ lo hi (pair_up orc)) as [[d u1]|e]; cbn [bind]; [|reflexivity].
  destruct (resolve_draw h nick table d) as [r|e]; cbn [bind]; [|reflexivity].
  rewrite !lookupN_assign, Z.eqb_refl. auto.
Qed.

(* enforced by the history database (sqlite: id INTEGER NOT NULL UNIQUE) *)
Definition IdsUnique (h : rh) : Prop :=
  forall r1 r2, In r1 (hrows h) -> In r2 (hrows h) ->
    h_table r1 = h_table r2 -> h_id r1 = h_id r2 -> r1 = r2.

Lemma IdsUnique_save h t n i :
  IdsUnique h -> (forall r, In r (hrows h) -> h_table r = t -> h_id r <> i) ->
  IdsUnique (save_row h t n i).
Proof.
  intros HU Hfresh r1 r2 H1 H2 Ht Hi. rewrite save_row_hrows in H1, H2.
  apply in_app_or in H1. apply in_app_or in H2.
  destruct H1 as [H1|[<-|[]]]; destruct H2 as [H2|[<-|[]]]; cbn [h_table h_id] in Ht, Hi.
  - exact (HU _ _ H1 H2 Ht Hi).
  - exfalso. exact (Hfresh r1 H1 Ht Hi).
  - exfalso. exact (Hfresh r2 H2 (eq_sym Ht) (eq_sym Hi)).
  - reflexivity.
Qed.

(* by nickname: two different numbers never name the same row, so "no number twice" is
   "no row twice" (by table name the row id IS the number) *)
Theorem nick_numbers_name_distinct_rows h n t d1 d2 tbl i :
  IdsUnique h ->
  resolve_draw h (Some n) t d1 = Ok (tbl, i) -> resolve_draw h (Some n) t d2 = Ok (tbl, i) -> d1 = d2.
Proof.
  intros HU H1 H2.
  destruct (nick_resolve_sound _ _ _ _ _ _ H1) as (_ & r1 & Hin1 & Ht1 & _ & Hd1 & Hi1).
  destruct (nick_resolve_sound _ _ _ _ _ _ H2) as (_ & r2 & Hin2 & Ht2 & _ & Hd2 & Hi2).
  assert (r1 = r2) by (apply HU; congruence). congruence.
Qed.
