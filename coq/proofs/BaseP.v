From Coq Require Import ZArith List Lia Bool Permutation.
From SFV Require Import Base.
Import ListNotations. Open Scope Z_scope.

Ltac splits := repeat match goal with |- _ /\ _ => split end.

Lemma bind_Ok {A B} (r : result A) (f : A -> result B) b :
  bind r f = Ok b -> exists a, r = Ok a /\ f a = Ok b.
Proof. destruct r; [eauto|discriminate]. Qed.

Lemma existsb_eqb_In {A} (eqb : A -> A -> bool) (eqb_eq : forall a b, eqb a b = true <-> a = b) x l :
  existsb (eqb x) l = true <-> In x l.
Proof.
  rewrite existsb_exists. split.
  - intros (y & Hy & E). apply eqb_eq in E. subst. exact Hy.
  - intros H. exists x. split; [exact H|apply eqb_eq; reflexivity].
Qed.

Lemma Zseq_length a n : length (Zseq a n) = n.
Proof. revert a; induction n; intros; cbn [Zseq length]; auto. Qed.

Lemma Zseq_In a n y : In y (Zseq a n) <-> a <= y < a + Z.of_nat n.
Proof.
  revert a; induction n as [|n IH]; intros a; cbn [Zseq In].
  - lia.
  - rewrite IH. lia.
Qed.

Lemma Zseq_NoDup a n : NoDup (Zseq a n).
Proof.
  revert a; induction n as [|n IH]; intros a; cbn [Zseq]; constructor.
  - rewrite Zseq_In. lia.
  - apply IH.
Qed.

Lemma Zseq_map_add a s n : map (fun v => v + s) (Zseq a n) = Zseq (a + s) n.
Proof.
  revert a; induction n as [|n IH]; intros a; cbn [Zseq map]; [reflexivity|].
  rewrite IH. f_equal. f_equal. lia.
Qed.

Lemma Zseq_app a n1 n2 : Zseq a (n1 + n2) = Zseq a n1 ++ Zseq (a + Z.of_nat n1) n2.
Proof.
  revert a; induction n1 as [|n1 IH]; intros a; cbn [Zseq Nat.add app].
  - f_equal. lia.
  - rewrite IH. do 3 f_equal. lia.
Qed.

Lemma Zseq_next a b : 0 <= a <= b -> Zseq 1 (Z.to_nat b) = Zseq 1 (Z.to_nat a) ++ Zseq (a + 1) (Z.to_nat (b - a)).
Proof.
  intros H. replace (Z.to_nat b) with (Z.to_nat a + Z.to_nat (b - a))%nat by lia.
  rewrite Zseq_app. do 2 f_equal. lia.
Qed.

Lemma Zseq_snoc n : 0 <= n -> Zseq 1 (Z.to_nat (n + 1)) = Zseq 1 (Z.to_nat n) ++ [n + 1].
Proof. intros Hn. rewrite (Zseq_next n) by lia. replace (n + 1 - n) with 1 by lia. reflexivity. Qed.

Lemma NoDup_app_l {A} (l1 l2 : list A) : NoDup (l1 ++ l2) -> NoDup l1.
Proof.
  induction l1 as [|x l1 IH]; cbn [app]; intros H; [constructor|].
  inversion H as [|? ? Hx Hl]; subst. constructor.
  - intros Hin. apply Hx. apply in_or_app. auto.
  - apply IH. assumption.
Qed.

Lemma NoDup_app_intro {A} (l1 l2 : list A) :
  NoDup l1 -> NoDup l2 -> (forall x, In x l1 -> ~ In x l2) -> NoDup (l1 ++ l2).
Proof.
  induction 1 as [|x l1 Hx Hl1 IH]; intros H2 Hd; cbn [app]; [assumption|].
  constructor.
  - rewrite in_app_iff. intros [H|H]; [contradiction|]. apply (Hd x); cbn; auto.
  - apply IH; [assumption|]. intros y Hy. apply Hd. cbn; auto.
Qed.

(* A recursion that descends along a graph and keeps the path on a stack needs at most as much
   fuel as there are nodes: the stack holds distinct nodes, and the fuel covers every node that
   is not yet on it. *)
Definition room {A} (nodes stack : list A) (fuel : nat) : Prop :=
  NoDup stack /\ incl stack nodes /\ (length nodes < fuel + length stack)%nat.

Lemma room_start {A B} (f : B -> A) (l : list B) : room (map f l) [] (S (length l)).
Proof. split; [constructor|]. split; [intros x []|]. rewrite map_length. cbn. lia. Qed.

Lemma room_0 {A} {nodes stack : list A} : ~ room nodes stack 0.
Proof. intros (Hd & Hi & Hl). pose proof (NoDup_incl_length Hd Hi). cbn in Hl. lia. Qed.

Lemma room_push {A} (nodes stack : list A) x k :
  room nodes stack (S k) -> In x nodes -> ~ In x stack -> room nodes (stack ++ [x]) k.
Proof.
  intros (Hd & Hi & Hl) Hx Hn. split; [|split].
  - apply (Permutation_NoDup (Permutation_cons_append stack x)). constructor; assumption.
  - intros y Hy. apply in_app_or in Hy as [Hy|[<-|[]]]; auto.
  - rewrite app_length. cbn [length]. lia.
Qed.
