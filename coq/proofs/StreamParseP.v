(* Every template a recipe can instantiate is registered with all its fields
   (property C08: the schema of the CSV / SQL outputs covers every generated row). *)
From Coq Require Import ZArith List Bool String Lia.
From SFV Require Import Base Streams StreamParse.
From SFV.P Require Import BaseP StreamsP.
Import ListNotations. Open Scope Z_scope.

(* unfolding equations of the mutual walk *)
Lemma w_fvals_cons e st v r :
  w_fvals e st (VCons v r) = (do x <- w_fval e st v; do y <- w_fvals e st r; Ok (x ++ y)).
Proof. reflexivity. Qed.
Lemma w_fields_cons e st n v r :
  w_fields e st (FCons n v r) = (do x <- w_fval e st v; do y <- w_fields e st r; Ok (x ++ y)).
Proof. reflexivity. Qed.
Lemma w_tpl_eq e st table upd incl fs friends :
  w_tpl e st (Tpl table upd incl fs friends) =
  (do m <- expand_all e st incl; do a <- w_fields e st fs; do b <- w_stmts e st friends;
   Ok (snd m ++ a ++ b ++ [mkT table (dedupe (fst m ++ field_names fs)) upd])).
Proof. reflexivity. Qed.
Lemma w_stmts_obj e st t r :
  w_stmts e st (SObj t r) = (do x <- w_tpl e st t; do y <- w_stmts e st r; Ok (x ++ y)).
Proof. reflexivity. Qed.
Lemma w_stmts_var e st v r :
  w_stmts e st (SVar v r) = (do x <- w_fval e st v; do y <- w_stmts e st r; Ok (x ++ y)).
Proof. reflexivity. Qed.
Lemma w_fval_obj e st t : w_fval e st (FVObj t) = w_tpl e st t.
Proof. reflexivity. Qed.
Lemma w_fval_args e st a : w_fval e st (FVArgs a) = w_fvals e st a.
Proof. reflexivity. Qed.

Scheme fval_mind := Induction for fval Sort Prop
  with fvals_mind := Induction for fvals Sort Prop
  with fields_mind := Induction for fields Sort Prop
  with tpl_mind := Induction for tpl Sort Prop
  with stmts_mind := Induction for stmts Sort Prop.
Combined Scheme syntax_mind from fval_mind, fvals_mind, fields_mind, tpl_mind, stmts_mind.

Section Spec.
  Variable ms : list macro.        (* context.macros after all files were read *)

  (* [occ_X x t]: the template t occurs in x — directly, nested in a field value or in function
     arguments, as a friend, in a variable definition, or in a macro that x includes *)
  Inductive occ_fval : fval -> tpl -> Prop :=
  | of_obj t t' : occ_tpl t t' -> occ_fval (FVObj t) t'
  | of_args a t' : occ_fvals a t' -> occ_fval (FVArgs a) t'
  with occ_fvals : fvals -> tpl -> Prop :=
  | ofs_here v r t' : occ_fval v t' -> occ_fvals (VCons v r) t'
  | ofs_next v r t' : occ_fvals r t' -> occ_fvals (VCons v r) t'
  with occ_fields : fields -> tpl -> Prop :=
  | ofl_here n v r t' : occ_fval v t' -> occ_fields (FCons n v r) t'
  | ofl_next n v r t' : occ_fields r t' -> occ_fields (FCons n v r) t'
  with occ_tpl : tpl -> tpl -> Prop :=
  | ot_self t : occ_tpl t t
  | ot_field t t' : occ_fields (tpl_fields t) t' -> occ_tpl t t'
  | ot_friend t t' : occ_stmts (tpl_friends t) t' -> occ_tpl t t'
  | ot_macro t m t' : In m (tpl_incl t) -> occ_macro m t' -> occ_tpl t t'
  with occ_stmts : stmts -> tpl -> Prop :=
  | os_obj t r t' : occ_tpl t t' -> occ_stmts (SObj t r) t'
  | os_var v r t' : occ_fval v t' -> occ_stmts (SVar v r) t'
  | os_next_obj t r t' : occ_stmts r t' -> occ_stmts (SObj t r) t'
  | os_next_var v r t' : occ_stmts r t' -> occ_stmts (SVar v r) t'
  with occ_macro : string -> tpl -> Prop :=
  | om_field name m t' : find_macro name ms = Some m -> occ_fields (m_fields m) t' -> occ_macro name t'
  | om_friend name m t' : find_macro name ms = Some m -> occ_stmts (m_friends m) t' -> occ_macro name t'
  | om_incl name m m2 t' : find_macro name ms = Some m -> In m2 (m_incl m) -> occ_macro m2 t' ->
                           occ_macro name t'.

  (* the fields a macro gives to a template that includes it *)
  Inductive macro_field : string -> string -> Prop :=
  | mf_own name m f : find_macro name ms = Some m -> In f (field_names (m_fields m)) -> macro_field name f
  | mf_incl name m m2 f : find_macro name ms = Some m -> In m2 (m_incl m) -> macro_field m2 f ->
                          macro_field name f.

  (* the fields of the rows a template generates: its own and those of its macros *)
  Definition eff_field (t : tpl) (f : string) : Prop :=
    In f (field_names (tpl_fields t)) \/ exists m, In m (tpl_incl t) /\ macro_field m f.

  Definition covered (regs : list template) (t : tpl) : Prop :=
    exists ft, In ft regs /\ t_table ft = tpl_table t /\ t_upd ft = tpl_upd t /\
               forall f, eff_field t f -> In f (t_fields ft).

  Lemma covered_app a b t : covered a t \/ covered b t -> covered (a ++ b) t.
  Proof. intros [(ft & H & R)|(ft & H & R)]; exists ft; (split; [apply in_or_app; auto|exact R]). Qed.

  (* the templates of two walks, one after the other *)
  Lemma covered_seq (r1 r2 : result (list template)) regs t :
    (do x <- r1; do y <- r2; Ok (x ++ y)) = Ok regs ->
    (forall x, r1 = Ok x -> covered x t) \/ (forall y, r2 = Ok y -> covered y t) -> covered regs t.
  Proof.
    destruct r1 as [x|]; [|discriminate]. destruct r2 as [y|]; [|discriminate].
    intros [= <-] [H|H]; apply covered_app; auto.
  Qed.

  Lemma dedupe_In l f : In f (dedupe l) <-> In f l.
  Proof. unfold dedupe. rewrite add_fields_In. cbn [In]. tauto. Qed.

  (* the walk is sound for any sound [expand] *)
  Definition expand_sound (expand : list string -> string -> result (list string * list template)) : Prop :=
    forall stack name names regs, expand stack name = Ok (names, regs) ->
      (forall f, macro_field name f -> In f names) /\
      (forall t', occ_macro name t' -> covered regs t').

  Section WalkSound.
    Variable expand : list string -> string -> result (list string * list template).
    Hypothesis Hexp : expand_sound expand.

    Lemma expand_all_sound names : forall stack fs regs,
      expand_all expand stack names = Ok (fs, regs) ->
      (forall m f, In m names -> macro_field m f -> In f fs) /\
      (forall m t', In m names -> occ_macro m t' -> covered regs t').
    Proof.
      induction names as [|n names IH]; intros stack fs regs H; cbn [expand_all] in H.
      - injection H as <- <-. split; intros ? ? [].
      - destruct (expand stack n) as [[na ra]|] eqn:E1; [|discriminate].
        destruct (expand_all expand stack names) as [[nb rb]|] eqn:E2; [|discriminate].
        injection H as <- <-. destruct (Hexp _ _ _ _ E1) as (A1 & A2). destruct (IH _ _ _ E2) as (B1 & B2).
        split.
        + intros m f [<-|Hm] Hf; apply in_or_app; eauto.
        + intros m t' [<-|Hm] Ho; apply covered_app; eauto.
    Qed.

    Lemma walk_sound :
      (forall v stack regs, w_fval expand stack v = Ok regs -> forall t', occ_fval v t' -> covered regs t') /\
      (forall a stack regs, w_fvals expand stack a = Ok regs -> forall t', occ_fvals a t' -> covered regs t') /\
      (forall fs stack regs, w_fields expand stack fs = Ok regs -> forall t', occ_fields fs t' -> covered regs t') /\
      (forall t stack regs, w_tpl expand stack t = Ok regs -> forall t', occ_tpl t t' -> covered regs t') /\
      (forall s stack regs, w_stmts expand stack s = Ok regs -> forall t', occ_stmts s t' -> covered regs t').
    Proof.
      apply syntax_mind.
      - intros stack regs _ t' Ho. inversion Ho.
      - intros t IH stack regs H t' Ho. rewrite w_fval_obj in H. inversion Ho; subst. eauto.
      - intros a IH stack regs H t' Ho. rewrite w_fval_args in H. inversion Ho; subst. eauto.
      - intros stack regs _ t' Ho. inversion Ho.
      - intros v IHv r IHr stack regs H t' Ho. rewrite w_fvals_cons in H. apply (covered_seq _ _ _ _ H). inversion Ho; subst; eauto.
      - intros stack regs _ t' Ho. inversion Ho.
      - intros n v IHv r IHr stack regs H t' Ho. rewrite w_fields_cons in H. apply (covered_seq _ _ _ _ H). inversion Ho; subst; eauto.
      - intros table upd incl fs IHf friends IHs stack regs H t' Ho. rewrite w_tpl_eq in H.
        destruct (expand_all expand stack incl) as [[mn mr]|] eqn:E0; [|discriminate].
        destruct (w_fields expand stack fs) as [a|] eqn:E1; [|discriminate].
        destruct (w_stmts expand stack friends) as [b|] eqn:E2; [|discriminate].
        injection H as <-. cbn [fst snd]. destruct (expand_all_sound _ _ _ _ E0) as (M1 & M2).
        inversion Ho; subst.
        + (* the template itself: registered last *)
          exists (mkT table (dedupe (mn ++ field_names fs)) upd). split; [do 3 (apply in_or_app; right); left; reflexivity|].
          do 2 (split; [reflexivity|]). intros f [Hf|(m & Hm & Hf)]; apply dedupe_In, in_or_app; eauto.
        + apply covered_app. right. apply covered_app. eauto.
        + do 2 (apply covered_app; right). apply covered_app. eauto.
        + apply covered_app. eauto.
      - intros stack regs _ t' Ho. inversion Ho.
      - intros t IHt r IHr stack regs H t' Ho. rewrite w_stmts_obj in H. apply (covered_seq _ _ _ _ H). inversion Ho; subst; eauto.
      - intros v IHv r IHr stack regs H t' Ho. rewrite w_stmts_var in H. apply (covered_seq _ _ _ _ H). inversion Ho; subst; eauto.
    Qed.
  End WalkSound.

  Lemma expand_macro_sound fuel : expand_sound (expand_macro ms fuel).
  Proof.
    induction fuel as [|n IH]; intros stack name names regs H; cbn [expand_macro] in H; [discriminate|].
    destruct (find_macro name ms) as [m|] eqn:Ef; [|discriminate].
    destruct (mem name stack); [discriminate|].
    destruct (expand_all _ _ (m_incl m)) as [[inn inr]|] eqn:E0; [|discriminate].
    destruct (w_fields _ _ (m_fields m)) as [a|] eqn:E1; [|discriminate].
    destruct (w_stmts _ _ (m_friends m)) as [b|] eqn:E2; [|discriminate].
    injection H as <- <-. cbn [fst snd].
    destruct (expand_all_sound _ IH _ _ _ _ E0) as (M1 & M2).
    destruct (walk_sound _ IH) as (_ & _ & Wf & _ & Ws).
    split.
    - intros f Hf. apply dedupe_In, in_or_app.
      inversion Hf as [? m' ? Hm Hin|? m' m2 ? Hm Hin Hrec]; subst; rewrite Ef in Hm; injection Hm as <-; eauto.
    - intros t' Ho. apply covered_app.
      inversion Ho as [? m' ? Hm Hx|? m' ? Hm Hx|? m' m2 ? Hm Hin Hx]; subst; rewrite Ef in Hm; injection Hm as <-;
        [right; apply covered_app| right; apply covered_app|]; eauto.
  Qed.

  Theorem walk_top_covers s regs : walk_top ms s = Ok regs ->
    forall t, occ_stmts s t -> covered regs t.
  Proof. apply (walk_sound _ (expand_macro_sound (macro_fuel ms))). Qed.

  Lemma occ_stmts_app a b t : occ_stmts a t \/ occ_stmts b t -> occ_stmts (stmts_app a b) t.
  Proof.
    induction a as [|x a IH|v a IH]; cbn [stmts_app]; intros [H|H].
    - inversion H.
    - exact H.
    - inversion H; subst; [apply os_obj; assumption|apply os_next_obj; auto].
    - apply os_next_obj. auto.
    - inversion H; subst; [apply os_var; assumption|apply os_next_var; auto].
    - apply os_next_var. auto.
  Qed.
End Spec.

Inductive reach (files : list (string * rfile)) : rfile -> rfile -> Prop :=
| reach_self f : reach files f f
| reach_incl f i fi f' : In i (f_includes f) -> aget i files = Some fi -> reach files fi f' -> reach files f f'.

Definition loaded (ld : list macro * stmts) (f : rfile) : Prop :=
  incl (f_macros f) (fst ld) /\ forall ms t, occ_stmts ms (f_stmts f) t -> occ_stmts ms (snd ld) t.

Lemma loaded_app a b f : loaded a f \/ loaded b f -> loaded (fst a ++ fst b, stmts_app (snd a) (snd b)) f.
Proof.
  intros [[H1 H2]|[H1 H2]]; (split; [intros m Hm; apply in_or_app|intros ms t Ho; apply occ_stmts_app]); auto.
Qed.

Lemma load_file_covers files fuel : forall stack name f ld,
  load_file files fuel stack name f = Ok ld -> forall f', reach files f f' -> loaded ld f'.
Proof.
  induction fuel as [|n IH]; intros stack name f ld H f' Hr; cbn [load_file] in H; [discriminate|].
  match type of H with (do inc <- ?G (f_includes f); _) = _ => set (go := G) in * end.
  destruct (go (f_includes f)) as [inc|] eqn:Eg; [|discriminate]. injection H as <-.
  apply (loaded_app inc (f_macros f, f_stmts f)).
  inversion Hr as [|? i fi ? Hin Hfi Hr']; subst; [right; split; [apply incl_refl|auto]|left].
  clear Hr. revert inc Eg. induction (f_includes f) as [|i0 l IHl]; intros inc Hg; [destruct Hin|].
  cbn in Hg. destruct (aget i0 files) as [fi0|] eqn:Ea; [|discriminate].
  destruct (String.eqb i0 name || mem i0 stack); [discriminate|].
  destruct (load_file files n (stack ++ [name]) i0 fi0) as [a|] eqn:El; [|discriminate].
  fold go in Hg. destruct (go l) as [b|] eqn:Eg2; [|discriminate]. injection Hg as <-. apply loaded_app.
  destruct Hin as [->|Hin]; [left|right; exact (IHl Hin _ eq_refl)].
  rewrite Ea in Hfi. injection Hfi as <-. exact (IH _ _ _ _ El f' Hr').
Qed.

Theorem parse_covers files main regs :
  parse_recipe files main = Ok regs ->
  exists ms,
    (forall f' m, reach files main f' -> In m (f_macros f') -> In m ms) /\
    forall f' t, reach files main f' -> occ_stmts ms (f_stmts f') t -> covered ms regs t.
Proof.
  unfold parse_recipe. intro H.
  destruct (load_file files (S (length files)) [] main_name main) as [[ms st]|] eqn:El; [|discriminate].
  exists ms. split; intros f' x Hr; destruct (load_file_covers _ _ _ _ _ _ El f' Hr) as (A1 & A2).
  - apply A1.
  - intros Ho. exact (walk_top_covers _ _ _ H _ (A2 _ _ Ho)).
Qed.

Theorem parse_schema_covers files main tables :
  recipe_schema files main = Ok tables ->
  exists ms,
    (forall f' m, reach files main f' -> In m (f_macros f') -> In m ms) /\
    forall f' t, reach files main f' -> occ_stmts ms (f_stmts f') t -> hidden (tpl_table t) = false ->
      exists ti, aget (tpl_table t) tables = Some ti /\
        forall k, k = "id"%string \/ (tpl_upd t = true /\ k = upd_key) \/ (eff_field ms t k /\ hidden k = false) ->
          In k (fallback ti) /\ In k (csv_header ti).
Proof.
  unfold recipe_schema. intro H.
  destruct (parse_recipe files main) as [regs|] eqn:Ep; [|discriminate]. injection H as <-.
  destruct (parse_covers _ _ _ Ep) as (ms & Hm & Hc). exists ms. split; [exact Hm|].
  intros f' t Hr Ho Hh. destruct (Hc f' t Hr Ho) as (ft & Hin & Ht & Hu & Hf).
  destruct (keys_in_schema regs ft Hin) as (ti & Hti & Hk); [rewrite Ht; exact Hh|].
  exists ti. split; [rewrite <- Ht; exact Hti|].
  intros k Hkk. apply Hk. unfold row_keys. destruct Hkk as [->|[[Hup ->]|[He Hhid]]]; [left; reflexivity|right..].
  - apply in_or_app. left. rewrite Hu, Hup. left. reflexivity.
  - apply in_or_app. right. apply filter_In. rewrite Hhid. auto.
Qed.

Definition nofuel {A} (r : result A) : Prop := r <> Err OutOfFuel.

Lemma nofuel_bind {A B} (r : result A) (f : A -> result B) :
  nofuel r -> (forall a, nofuel (f a)) -> nofuel (bind r f).
Proof. unfold nofuel. destruct r; cbn [bind]; [auto|]. intros H _ [= ->]. apply H. reflexivity. Qed.

Lemma nofuel_ok {A} (a : A) : nofuel (Ok a).
Proof. discriminate. Qed.

Local Hint Resolve nofuel_bind nofuel_ok : nofuel.

Section NF.
  Variable expand : list string -> string -> result (list string * list template).
  Variable stack : list string.
  Hypothesis Hexp : forall name, nofuel (expand stack name).

  Lemma expand_all_nofuel names : nofuel (expand_all expand stack names).
  Proof. induction names; cbn [expand_all]; auto with nofuel. Qed.

  Lemma walk_nofuel :
    (forall v, nofuel (w_fval expand stack v)) /\
    (forall a, nofuel (w_fvals expand stack a)) /\
    (forall fs, nofuel (w_fields expand stack fs)) /\
    (forall t, nofuel (w_tpl expand stack t)) /\
    (forall s, nofuel (w_stmts expand stack s)).
  Proof.
    pose proof expand_all_nofuel.
    apply syntax_mind; intros;
      rewrite ?w_fvals_cons, ?w_fields_cons, ?w_tpl_eq, ?w_stmts_obj, ?w_stmts_var; auto 7 with nofuel; apply nofuel_ok.
  Qed.
End NF.

Lemma find_macro_In name ms m : find_macro name ms = Some m -> In name (map m_name ms).
Proof.
  unfold find_macro. induction ms as [|m0 ms IH] using rev_ind; [discriminate|].
  rewrite fold_left_app, map_app, in_app_iff. cbn. destruct (String.eqb_spec (m_name m0) name); auto.
Qed.

(* A stack of different names out of [names] that may still grow [fuel] times: both the macros
   being expanded and the files being loaded form such a stack, so neither outgrows its fuel. *)
Lemma expand_macro_nofuel ms fuel : forall stack name,
  room (map m_name ms) stack fuel -> nofuel (expand_macro ms fuel stack name).
Proof.
  induction fuel as [|n IH]; intros stack name R; [destruct (room_0 R)|].
  cbn [expand_macro]. destruct (find_macro name ms) as [m|] eqn:Ef; [|discriminate].
  destruct (mem name stack) eqn:Em; [discriminate|].
  assert (Hn : forall nm, nofuel (expand_macro ms n (stack ++ [name]) nm)).
  { intro nm. apply IH, room_push; [exact R|exact (find_macro_In _ _ _ Ef)|].
    intros Hx%mem_In. congruence. }
  destruct (walk_nofuel _ _ Hn) as (_ & _ & Wf & _ & Ws). pose proof (expand_all_nofuel _ _ Hn).
  auto 7 with nofuel.
Qed.

Lemma walk_top_nofuel ms s : nofuel (walk_top ms s).
Proof.
  apply walk_nofuel. intro nm. apply expand_macro_nofuel, room_start.
Qed.

Lemma load_file_nofuel files names fuel : incl (map fst files) names -> forall stack name f,
  room names (stack ++ [name]) fuel -> nofuel (load_file files fuel stack name f).
Proof.
  intros Hf. induction fuel as [|n IH]; intros stack name f R; [destruct (room_0 R)|].
  cbn [load_file].
  match goal with |- nofuel (do inc <- ?G (f_includes f); _) => set (go := G) end.
  assert (Hgo : forall l, nofuel (go l)); [|auto with nofuel].
  induction l as [|i l IHl]; [apply nofuel_ok|].
  cbn. destruct (aget i files) as [fi|] eqn:Ea; [|discriminate].
  destruct (String.eqb i name || mem i stack) eqn:Ec; [discriminate|].
  apply orb_false_iff in Ec. destruct Ec as [Ene Enm]. fold go.
  apply nofuel_bind; [|auto with nofuel]. apply IH, room_push; [exact R| |].
  - apply Hf, aget_In. congruence.
  - intros [Hx%mem_In|[<-|[]]]%in_app_or; [congruence|]. rewrite String.eqb_refl in Ene. discriminate.
Qed.

Theorem parse_recipe_nofuel files main : parse_recipe files main <> Err OutOfFuel.
Proof.
  unfold parse_recipe. apply nofuel_bind; [|intros; apply walk_top_nofuel].
  apply (load_file_nofuel files (main_name :: map fst files)); [apply incl_tl, incl_refl|].
  split; [repeat constructor; easy|]. split; [intros x [<-|[]]; left; reflexivity|]. cbn. rewrite map_length. lia.
Qed.
