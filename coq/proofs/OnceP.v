(* C06 over the interpreter: just_once templates run only when `continuing` is false; every later
   iteration and every continued run leaves the persistent name maps untouched ([same_persist]), and
   the rows they denote keep table and id ([heap_ext]). *)
From Coq Require Import ZArith List Lia Bool Permutation ZifyBool.
From SFV Require Import Base Interp.
From SFV.P Require Import BaseP InterpP InterpHeapP IdsP RefsP.
Import ListNotations. Open Scope Z_scope.

(* the syntactic side condition: just_once occurs only on top-level templates (the parser
   rejects it elsewhere) *)
Fixpoint fdef_nf (d : fdef) : bool :=
  match d with
  | FNested t => tpl_nf t
  | _ => true
  end
with tpl_nf (t : template) : bool :=          (* no just_once anywhere inside, itself included *)
  match t with
  | Tpl _ _ cnt once fields friends =>
    negb once &&
    (match cnt with Some d => fdef_nf d | None => true end) &&
    (fix go (l : list (string * fdef)) : bool :=
       match l with [] => true | (_, d) :: r => fdef_nf d && go r end) fields &&
    (fix gs (l : list stmt) : bool :=
       match l with [] => true | x :: r => stmt_nf x && gs r end) friends
  end
with stmt_nf (x : stmt) : bool :=
  match x with
  | SObj t => tpl_nf t
  | SVar _ d => fdef_nf d
  end.

Definition fields_nf (l : list (string * fdef)) : bool := forallb (fun nd => fdef_nf (snd nd)) l.
Definition stmts_nf (l : list stmt) : bool := forallb stmt_nf l.

Definition tpl_body_nf (t : template) : bool :=
  (match t_count t with Some d => fdef_nf d | None => true end) &&
  fields_nf (t_fields t) && stmts_nf (t_friends t).

Lemma tpl_nf_unfold t : tpl_nf t = negb (t_once t) && tpl_body_nf t.
Proof.
  destruct t as [tb nk cnt once fields friends]. unfold tpl_body_nf, fields_nf, stmts_nf.
  cbn [tpl_nf t_once t_count t_fields t_friends]. rewrite !andb_assoc. do 2 f_equal.
  (* the loop over the friends is forallb itself; the one over the fields takes the pair apart *)
  induction fields as [|[n d] r IH]; cbn [forallb snd]; [reflexivity|]. rewrite IH. reflexivity.
Qed.

Definition top_stmt_ok (x : stmt) : bool :=
  match x with SObj t => tpl_body_nf t | SVar _ d => fdef_nf d end.
Definition once_top_only (l : list stmt) : bool := forallb top_stmt_ok l.

(* tasks that cannot create a just_once row: under `continuing` a just_once template at the top is
   skipped, so only what is below the top must be free of them *)
Definition task_nf (tk : task) : bool :=
  match tk with
  | TStmts l c => if c then forallb top_stmt_ok l else stmts_nf l
  | TStmt x c => if c then top_stmt_ok x else stmt_nf x
  | TRows t => tpl_nf t
  | TLoop t _ _ _ => tpl_nf t
  | TRow t _ => tpl_nf t
  | TFields _ fs => fields_nf fs
  | TField d => fdef_nf d
  end.

Definition same_persist (s s' : st) : Prop := p_nicks s' = p_nicks s /\ p_tables s' = p_tables s.

Lemma sp_refl s : same_persist s s.
Proof. split; reflexivity. Qed.
Lemma sp_trans a b c : same_persist a b -> same_persist b c -> same_persist a c.
Proof. intros [x y] [z w]. split; congruence. Qed.

Lemma touches_sp s s' : touches s s' -> same_persist s s'.
Proof. intros H. rewrite (touches_only H). split; reflexivity. Qed.

(* a row that is not just_once is registered under the per-iteration names only *)
Lemma new_row_sp s T nick id i : same_persist s (new_row s T nick false id i).
Proof. destruct s as [? ? ? ? ? ? ? [|f r] ? ? ?], nick; split; reflexivity. Qed.

Lemma stmt_nf_top x : stmt_nf x = true -> top_stmt_ok x = true.
Proof.
  destruct x as [t|n d]; cbn [stmt_nf top_stmt_ok]; [|auto].
  rewrite tpl_nf_unfold. intros H. apply andb_true_iff in H. tauto.
Qed.

Lemma stmts_nf_top l : stmts_nf l = true -> forallb top_stmt_ok l = true.
Proof.
  unfold stmts_nf. induction l as [|x r IH]; cbn [forallb]; [auto|].
  intros H. apply andb_true_iff in H. destruct H as [H1 H2].
  rewrite (stmt_nf_top _ H1), (IH H2). reflexivity.
Qed.

Lemma tpl_nf_inv t : tpl_nf t = true ->
  t_once t = false /\ (forall d, t_count t = Some d -> fdef_nf d = true) /\
  fields_nf (t_fields t) = true /\ stmts_nf (t_friends t) = true.
Proof.
  rewrite tpl_nf_unfold. unfold tpl_body_nf. rewrite !andb_true_iff, negb_true_iff.
  intros (Ho & (Hc & Hf) & Hs). splits; auto. intros d Hd. rewrite Hd in Hc. exact Hc.
Qed.

Lemma exec_persist {e tk s s' r} : exec e tk s s' r -> task_nf tk = true -> same_persist s s'.
Proof.
  induction 1; cbn [task_nf top_stmt_ok stmt_nf] in *; intros Hnf; try apply sp_refl.
  - assert (Hx : task_nf (TStmt x c) = true /\ task_nf (TStmts l c) = true).
    { apply andb_true_iff. destruct c; exact Hnf. }
    eapply sp_trans; [apply IHexec1|apply IHexec2]; apply Hx.
  - apply IHexec. destruct c; [|exact Hnf].
    rewrite tpl_nf_unfold. rewrite andb_true_r in H. rewrite H. exact Hnf.
  - rewrite set_var_only, pop_frame_only. apply (sp_trans s s1); [apply IHexec; destruct c; exact Hnf|split; reflexivity].
  - rewrite pop_frame_only. apply (sp_trans s s2); [apply IHexec; exact Hnf|split; reflexivity].
  - rewrite pop_frame_only. apply (sp_trans s s2); [|split; reflexivity].
    eapply sp_trans; [apply IHexec1; eapply tpl_nf_inv; eassumption|apply IHexec2; exact Hnf].
  - rewrite set_var_only in IHexec1. eapply sp_trans; [apply IHexec1|apply IHexec2]; exact Hnf.
  - destruct (tpl_nf_inv _ Hnf) as (Ho & _ & Hf & Hs). rewrite Ho in *.
    destruct (remember_only H2) as (d & x & ->).
    destruct (write_row_touches H3) as (s5 & o & T5 & ->).
    eapply sp_trans; [|apply IHexec2, stmts_nf_top, Hs].
    eapply sp_trans; [|exact (touches_sp _ _ T5)].
    eapply sp_trans; [|apply IHexec1, Hf].
    eapply sp_trans; [|apply new_row_sp]. rewrite (new_row_id_only H). split; reflexivity.
  - unfold fields_nf in Hnf. cbn [forallb snd] in Hnf. apply andb_true_iff in Hnf.
    rewrite set_field_only in IHexec2. eapply sp_trans; [apply IHexec1|apply IHexec2]; apply Hnf.
  - eapply touches_sp, render_formula_touches; eassumption.
  - eapply touches_sp, reference_touches; eassumption.
  - apply IHexec, Hnf.
  - destruct (random_reference_rnd H) as [x ->]. split; reflexivity.
Qed.

Theorem run_persist fuel : forall e tk s s' r,
  run fuel e tk s = Ok (s', r) -> task_nf tk = true -> same_persist s s'.
Proof. intros e tk s s' r H. eapply exec_persist, run_exec, H. Qed.

Theorem later_iterations_keep_singletons_k k : forall e stmts s s',
  once_top_only stmts = true -> iterations k e stmts true s = Ok s' ->
  same_persist s s' /\ heap_ext s s'.
Proof.
  induction k as [|k IH]; intros e stmts s s' Hok H; cbn [iterations] in H.
  - injection H as <-. split; [apply sp_refl|apply heap_ext_refl].
  - dbind H as s2. destruct (iteration_exec E) as (s1 & r & E1 & _ & ->).
    destruct (IH _ _ _ _ Hok H) as [P2 X2]. split.
    (* the resets at the end of the iteration read and write neither the persistent maps nor the heap *)
    + eapply sp_trans; [|exact P2]. exact (exec_persist E1 Hok).
    + eapply heap_ext_trans; [|exact X2]. exact (exec_heap_ext E1).
Qed.

Theorem singleton_denotation_stable k e stmts s s' n h c :
  once_top_only stmts = true -> iterations k e stmts true s = Ok s' ->
  (lookup n (p_nicks s) = Some h \/ lookup n (p_tables s) = Some h) ->
  nth_error (heap s) h = Some c ->
  (lookup n (p_nicks s') = Some h \/ lookup n (p_tables s') = Some h) /\
  exists c', nth_error (heap s') h = Some c' /\ c_table c' = c_table c /\ c_id c' = c_id c.
Proof.
  intros Hok H Hl Hc. destruct (later_iterations_keep_singletons_k _ _ _ _ _ Hok H) as [[P1 P2] X].
  split; [rewrite P1, P2; exact Hl|].
  destruct (X h c Hc) as (c' & Hc' & k1 & k2 & _). exists c'. auto.
Qed.

Lemma clean_handles_ext hs : forall h h1, clean_handles h hs = Ok h1 ->
  forall x c, nth_error h x = Some c -> exists c', nth_error h1 x = Some c' /\ same_key c c'.
Proof.
  induction hs as [|y r IH]; intros h h1 H x c Hx; cbn [clean_handles] in H.
  - injection H as <-. exists c. unfold same_key. auto.
  - destruct (nth_error h y) as [cy|] eqn:Hy; [|discriminate]. dbind H as fs.
    (* the cell at x after this step: cy with its fields rewritten if x = y, else still c *)
    destruct (IH _ _ H x (if Nat.eqb y x then mkCell (c_table cy) (c_id cy) (c_index cy) fs else c))
      as (c' & Hc' & K).
    + rewrite nth_error_set_nth, Hx. destruct (Nat.eqb y x); reflexivity.
    + exists c'. split; [exact Hc'|]. destruct (Nat.eqb_spec y x) as [->|_]; [|exact K].
      rewrite Hx in Hy. injection Hy as <-. exact K.
Qed.

Theorem singletons_survive_continuation e s c s0 :
  save s = Ok c -> load e c = Ok s0 ->
  p_nicks s0 = p_nicks s /\ p_tables s0 = p_tables s /\
  forall h cl, nth_error (heap s) h = Some cl ->
    exists c', nth_error (heap s0) h = Some c' /\
               c_table c' = c_table cl /\ c_id c' = c_id cl /\ c_index c' = c_index cl.
Proof.
  unfold save. intros H Hl. dbind H as h1. injection H as <-.
  destruct (load_spec Hl) as [hh ->].
  cbn [p_nicks p_tables heap k_p_nicks k_p_tables k_heap]. splits; try reflexivity.
  intros h cl Hc. eapply clean_handles_ext; eassumption.
Qed.
