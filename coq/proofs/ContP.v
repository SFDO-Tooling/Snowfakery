(* C04 over the interpreter: cutting a run into runs chained by continuation files does not change
   the output (for recipes without top-level variables whose just_once rows hold only scalars).
   (1) The evaluator never reads the output list, so a run started with a different output prefix
   computes the same thing ([run_app]); (2) the frame stack is restored by every top-level object
   statement ([exec_frames]); (3) at an iteration boundary of such a recipe, `load (save s)` is `s`
   with the output emptied ([save_load_id]).  Hence a continued run is the uninterrupted run with
   its output prefix removed ([iterations_resume]). *)
From Coq Require Import ZArith List Lia Bool Permutation ZifyBool.
From SFV Require Import Base RandRange RowHistory Interp.
From SFV.P Require Import BaseP InterpP InterpHeapP IdsP RefsP OnceP.
Import ListNotations. Open Scope Z_scope.

(* put [o] underneath the current output ([out] is newest-first) *)
Definition app_out (o : list orow) (s : st) : st := upd_out s (out s ++ o).

Definition liftA {A} (o : list orow) (r : result (st * A)) : result (st * A) :=
  match r with Ok (s, a) => Ok (app_out o s, a) | Err e => Err e end.

Definition liftS (o : list orow) (r : result st) : result st :=
  match r with Ok s => Ok (app_out o s) | Err e => Err e end.

Lemma count_liftA {A} (o : list orow) (r : result (st * A)) (k : st * A -> result (st * ret)) s1 a :
  r = Ok (s1, a) -> bind (liftA o r) k = k (app_out o s1, a).
Proof. intros ->. reflexivity. Qed.

(* A step that commutes with [app_out], followed by a continuation that does, commutes with it.
   The proofs below peel one step after the other with this; what remains each time is a case
   analysis on something the two sides read alike, since [app_out] changes [out] only. *)
Lemma liftA_bind {A B} o (r : result (st * A)) (k : st -> A -> result (st * B)) :
  (forall s a, k (app_out o s) a = liftA o (k s a)) ->
  (do '(s, a) <- liftA o r; k s a) = liftA o (do '(s, a) <- r; k s a).
Proof. intros H. destruct r as [[s a]|]; [apply H|reflexivity]. Qed.

Lemma touch_slot_app s n o : touch_slot (app_out o s) n = liftA o (touch_slot s n).
Proof.
  unfold touch_slot. cbn [slots app_out upd_out].
  destruct (lookup n (slots s)) as [sl|]; [|reflexivity].
  destruct (s_alloc sl); reflexivity.
Qed.

Lemma lookup_name_app e s o n : lookup_name e (app_out o s) n = lookup_name e s n.
Proof. reflexivity. Qed.

Lemma eval_expr_app e x : forall s o, eval_expr e x (app_out o s) = liftA o (eval_expr e x s).
Proof.
  induction x as [z|n|a IHa f|a IHa b IHb|a IHa b IHb|a IHa b IHb]; intros s o; cbn [eval_expr].
  (* goals 4-6: the binary operators; the error that fills their table of operand kinds gets a name,
     as in [InterpP.eval_expr_touches] *)
  4-6: set (type_error := dge "TypeError"); rewrite IHa; apply liftA_bind; intros s1 v1; rewrite IHb; apply liftA_bind; intros s2 v2;
    destruct v1; try reflexivity; destruct v2; reflexivity.
  - reflexivity.
  - rewrite lookup_name_app. destruct (lookup_name e s n) as [[v|]|]; reflexivity.
  - rewrite IHa. apply liftA_bind. intros s1 v. cbn [heap rnd app_out upd_out].
    destruct v; try reflexivity; try (destruct (py_own_attr f); reflexivity).
    + destruct (py_own_attr f); [reflexivity|].
      destruct (nth_error (heap s1) h); [|reflexivity]. destruct (row_attr c f); reflexivity.
    + destruct (String.eqb f "id"); [|reflexivity]. rewrite touch_slot_app.
      apply liftA_bind. reflexivity.
    + destruct (hist_attr (hist (rnd s1)) (heap s1) table id f); reflexivity.
Qed.

Lemma render_pieces_app e ps : forall s o, render_pieces e ps (app_out o s) = liftA o (render_pieces e ps s).
Proof.
  induction ps as [|p ps IH]; intros s o; cbn [render_pieces]; [reflexivity|].
  destruct p as [t|x].
  - rewrite IH. apply liftA_bind. reflexivity.
  - rewrite eval_expr_app. apply liftA_bind. intros s1 v.
    change (to_str (app_out o s1) v) with (to_str s1 v). destruct (to_str s1 v); [|reflexivity]. cbn [bind].
    rewrite IH. apply liftA_bind. reflexivity.
Qed.

Lemma render_formula_app e ps s o : render_formula e ps (app_out o s) = liftA o (render_formula e ps s).
Proof.
  assert (P : forall ps (f : string -> result value),
            (do '(s1, t) <- render_pieces e ps (app_out o s); do w <- f t; Ok (s1, w)) =
            liftA o (do '(s1, t) <- render_pieces e ps s; do w <- f t; Ok (s1, w))).
  { intros ps0 f. rewrite render_pieces_app. apply liftA_bind. intros s1 t.
    destruct (f t); reflexivity. }
  unfold render_formula. destruct (version e =? 3); [|apply P].
  destruct ps as [|[t|x] [|p2 r]]; try apply P.
  rewrite eval_expr_app. apply liftA_bind. intros s1 v.
  destruct v; try reflexivity. destruct (native_str s0); reflexivity.
Qed.

Lemma getattr_path_app s o v p : getattr_path (app_out o s) v p = liftA o (getattr_path s v p).
Proof.
  unfold getattr_path. cbn [heap rnd app_out upd_out]. destruct v; try reflexivity.
  - destruct (nth_error (heap s) h); [|reflexivity]. destruct (row_attr c p); reflexivity.
  - destruct (String.eqb p "id"); [|reflexivity]. rewrite touch_slot_app. apply liftA_bind. reflexivity.
  - destruct (hist_attr (hist (rnd s)) (heap s) table id p); reflexivity.
Qed.

Lemma follow_path_app parts : forall s o v, follow_path (app_out o s) v parts = liftA o (follow_path s v parts).
Proof.
  induction parts as [|p r IH]; intros s o v; cbn [follow_path]; [reflexivity|].
  rewrite getattr_path_app. apply liftA_bind. intros s1 w. apply IH.
Qed.

Lemma reference_app e path s o : reference e path (app_out o s) = liftA o (reference e path s).
Proof.
  unfold reference. destruct (split_dot path) as [|first parts]; [reflexivity|].
  rewrite lookup_name_app. destruct (lookup_name e s first) as [[v0|]|]; cbn [bind]; try reflexivity.
  - rewrite follow_path_app. apply liftA_bind. intros s1 target.
    destruct target; try reflexivity. rewrite touch_slot_app. apply liftA_bind. reflexivity.
  - destruct parts; reflexivity.
Qed.

Lemma flatten_fields_app fs : forall s o, flatten_fields (app_out o s) fs = liftA o (flatten_fields s fs).
Proof.
  induction fs as [|[n v] r IH]; intros s o; cbn [flatten_fields]; [reflexivity|].
  destruct (hidden n); [apply IH|].
  (* the rest of the row, after the value of this field *)
  assert (K : forall s1 (x : ovalue),
            (do '(s2, rest) <- flatten_fields (app_out o s1) r; Ok (s2, (n, x) :: rest)) =
            liftA o (do '(s2, rest) <- flatten_fields s1 r; Ok (s2, (n, x) :: rest))).
  { intros s1 x. rewrite IH. apply liftA_bind. reflexivity. }
  cbn [heap slots app_out upd_out]. destruct v; cbn [bind]; try apply K; try reflexivity.
  - destruct (nth_error (heap s) h); [apply K|reflexivity].
  - destruct (lookup name (slots s)); [|reflexivity].
    rewrite touch_slot_app. destruct (touch_slot s name) as [[s1 i]|]; [apply K|reflexivity].
Qed.

Lemma write_row_app s h o : write_row (app_out o s) h = liftS o (write_row s h).
Proof.
  unfold write_row. cbn [heap app_out upd_out].
  destruct (nth_error (heap s) h) as [c|]; [|reflexivity].
  destruct (hidden (c_table c)); [reflexivity|].
  rewrite flatten_fields_app. destruct (flatten_fields s (c_fields c)) as [[s1 fs]|]; reflexivity.
Qed.

Lemma set_var_app s n v o : set_var (app_out o s) n v = app_out o (set_var s n v).
Proof. unfold set_var. cbn [frames app_out upd_out]. destruct (frames s); reflexivity. Qed.
Lemma set_obj_app s h o : set_obj (app_out o s) h = app_out o (set_obj s h).
Proof. unfold set_obj. cbn [frames app_out upd_out]. destruct (frames s); reflexivity. Qed.
Lemma pop_frame_app s o : pop_frame (app_out o s) = app_out o (pop_frame s).
Proof. unfold pop_frame. cbn [frames app_out upd_out]. destruct (frames s); reflexivity. Qed.
Lemma push_frame_app s o : push_frame (app_out o s) = app_out o (push_frame s).
Proof. reflexivity. Qed.
Lemma upd_heap_app s x o : upd_heap (app_out o s) x = app_out o (upd_heap s x).
Proof. reflexivity. Qed.
Lemma set_field_app s h n v o : set_field (app_out o s) h n v = app_out o (set_field s h n v).
Proof. unfold set_field. cbn [heap app_out upd_out]. destruct (nth_error (heap s) h); reflexivity. Qed.
Lemma register_object_app s h t nick once o :
  register_object (app_out o s) h t nick once = app_out o (register_object s h t nick once).
Proof. destruct s, nick, once; reflexivity. Qed.

Lemma consume_for_app s n t o :
  consume_for (app_out o s) n t =
  match consume_for s n t with Some (s1, i) => Some (app_out o s1, i) | None => None end.
Proof.
  unfold consume_for. cbn [slots app_out upd_out].
  destruct (lookup n (slots s)) as [sl|]; [|reflexivity].
  destruct (s_alloc sl); [|reflexivity]. destruct (_ && _); reflexivity.
Qed.

Lemma new_row_id_app s t nick o :
  new_row_id (app_out o s) t nick = (app_out o (fst (new_row_id s t nick)), snd (new_row_id s t nick)).
Proof.
  unfold new_row_id. rewrite (consume_for_app s t t).
  destruct nick as [n|]; [rewrite consume_for_app; destruct (consume_for s n t) as [[s1 i]|]; [reflexivity|]|];
    (destruct (consume_for s t t) as [[s1 i]|]; reflexivity).
Qed.

Lemma remember_deps_app fs : forall s t o, remember_deps (app_out o s) t fs = app_out o (remember_deps s t fs).
Proof.
  unfold remember_deps. induction fs as [|[n v] r IH]; intros s t o; cbn [fold_left]; [reflexivity|].
  change (target_table (app_out o s) v) with (target_table s v). cbn [deps app_out upd_out].
  destruct (target_table s v) as [tgt|]; [|apply IH]. destruct (existsb _ _); [apply IH|].
  apply (IH (upd_deps s _)).
Qed.

Lemma remember_history_app e s t nick id o :
  remember_history e (app_out o s) t nick id = liftS o (remember_history e s t nick id).
Proof. unfold remember_history. destruct (existsb (String.eqb t) (hist_tables e)); reflexivity. Qed.

Lemma random_reference_app e to s o :
  random_reference e to (app_out o s) = liftA o (random_reference e to s).
Proof.
  unfold random_reference. cbn [rnd app_out upd_out].
  destruct (negb (rr_ok e)); [reflexivity|].
  destruct (ref_range (hist (rnd s)) to) as [[[[nick table] lo] hi]|]; [|reflexivity]. cbn [bind].
  destruct (draws (rnd s)) as [|r rest]; [reflexivity|].
  destruct ((0 <=? r) && (r <? hi - lo + 1)); [|reflexivity].
  destruct (resolve_draw (hist (rnd s)) nick table (lo + r)) as [[t i]|]; reflexivity.
Qed.

(* an equation between results, so it speaks of failing runs too: an induction on fuel, not on [exec] *)
Theorem run_app fuel : forall e tk s o,
  run fuel e tk (app_out o s) = liftA o (run fuel e tk s).
Proof.
  induction fuel as [|n IH]; intros e tk s o; [reflexivity|].
  cbn [run]. destruct tk as [l c|x c|t|t i cnt last|t i|h fs|d].
  - destruct l as [|x l]; [reflexivity|]. rewrite IH. apply liftA_bind. intros s1 r1. apply IH.
  - destruct x as [t|name d].
    + destruct (t_once t && c); [reflexivity|]. rewrite IH. apply liftA_bind. reflexivity.
    + destruct d; try reflexivity;
        (rewrite push_frame_app, IH; apply liftA_bind; intros s1 r1; rewrite pop_frame_app, set_var_app; reflexivity).
  - rewrite push_frame_app.
    assert (L : forall s1 cnt, (do '(s2, r) <- run n e (TLoop t 0 cnt None) (app_out o s1); Ok (pop_frame s2, r)) =
                               liftA o (do '(s2, r) <- run n e (TLoop t 0 cnt None) s1; Ok (pop_frame s2, r))).
    { intros s1 cnt. rewrite IH. apply liftA_bind. intros s2 r. rewrite pop_frame_app. reflexivity. }
    destruct (t_count t) as [d|]; [|apply L].
    rewrite IH. destruct (run n e (TField d) (push_frame s)) as [[s1 r1]|]; [|reflexivity]. cbn [liftA bind].
    destruct (count_of (ret_value r1)); [apply L|reflexivity].
  - destruct (i <? cnt); [|reflexivity].
    rewrite set_var_app, IH. apply liftA_bind. intros s1 r1.
    destruct r1; try reflexivity. apply IH.
  - rewrite new_row_id_app.
    destruct (new_row_id s (t_table t) (t_nick t)) as [s1 id]. cbn [fst snd heap app_out upd_out].
    rewrite upd_heap_app, set_obj_app, register_object_app, IH. apply liftA_bind. intros s4 r4. cbn [heap app_out upd_out].
    destruct (nth_error (heap s4) (length (heap s1))) as [c|]; [|reflexivity].
    rewrite remember_deps_app, remember_history_app.
    destruct (remember_history e (remember_deps s4 (t_table t) (c_fields c)) (t_table t) (t_nick t) id) as [s5|];
      [|reflexivity].
    cbn [liftS bind]. rewrite write_row_app.
    destruct (write_row s5 (length (heap s1))) as [s6|]; [|reflexivity].
    cbn [liftS bind]. rewrite IH. apply liftA_bind. reflexivity.
  - destruct fs as [|[name d] fs]; [reflexivity|].
    destruct (String.eqb name "id"); [reflexivity|].
    rewrite IH. apply liftA_bind. intros s1 v. rewrite set_field_app. apply IH.
  - destruct d as [z|x|ps|path|t|to].
    + reflexivity.
    + destruct (version e =? 3); [reflexivity|]. destruct (look_for_number x); reflexivity.
    + rewrite render_formula_app. apply liftA_bind. reflexivity.
    + rewrite reference_app. apply liftA_bind. reflexivity.
    + apply IH.
    + rewrite random_reference_app. apply liftA_bind. reflexivity.
Qed.

Definition is_obj (x : stmt) : bool := match x with SObj _ => true | SVar _ _ => false end.

(* tasks that restore the frame stack exactly *)
Definition whole (tk : task) : bool :=
  match tk with
  | TRows _ | TField _ => true
  | TStmt x _ => is_obj x
  | TStmts l _ => forallb is_obj l
  | _ => false
  end.

(* at most the top frame differs *)
Definition top_only (s s' : st) : Prop :=
  forall f fs, frames s = f :: fs -> exists f', frames s' = f' :: fs.

Lemma top_trans a b c : top_only a b -> top_only b c -> top_only a c.
Proof. intros H1 H2 f fs F. destruct (H1 f fs F) as [f1 F1]. exact (H2 f1 fs F1). Qed.

Lemma top_eq s s' : frames s' = frames s -> top_only s s'.
Proof. intros F f fs. rewrite F. eauto. Qed.

Lemma frames_kept s s' (P : Prop) :
  frames s' = frames s -> top_only s s' /\ (P -> frames s' = frames s).
Proof. intros F. split; [apply top_eq, F|intros _; exact F]. Qed.

Lemma set_var_top s n v : top_only s (set_var s n v).
Proof. unfold set_var. intros f fs ->. eexists. reflexivity. Qed.

Lemma new_row_top s T nick once id i : top_only s (new_row s T nick once id i).
Proof. intros f fs F. rewrite new_row_frames, F. eexists. reflexivity. Qed.

(* what runs between a push and the matching pop cannot reach below the pushed frame *)
Lemma pop_push s s' : top_only (push_frame s) s' -> frames (pop_frame s') = frames s.
Proof. intros T. destruct (T _ _ eq_refl) as [f F]. unfold pop_frame. rewrite F. reflexivity. Qed.

Lemma exec_frames {e tk s s' r} : exec e tk s s' r ->
  top_only s s' /\ (whole tk = true -> frames s' = frames s).
Proof.
  induction 1; cbn [whole is_obj forallb] in *; try (apply frames_kept; reflexivity).
  - destruct IHexec1 as [T1 W1], IHexec2 as [T2 W2]. split; [eapply top_trans; eassumption|].
    intros Hw. apply andb_true_iff in Hw. destruct Hw as [Hx Hl]. rewrite (W2 Hl). exact (W1 Hx).
  - exact IHexec.
  - destruct IHexec as [T _]. split; [|discriminate].
    eapply top_trans; [apply top_eq, pop_push, T|apply set_var_top].
  - apply frames_kept, pop_push, IHexec.
  - destruct IHexec1 as [T1 _], IHexec2 as [T2 _]. eapply frames_kept, pop_push, top_trans; eassumption.
  - destruct IHexec1 as [T1 _], IHexec2 as [T2 _]. split; [|discriminate].
    eapply top_trans; [apply set_var_top|]. eapply top_trans; eassumption.
  - destruct IHexec1 as [T1 _], IHexec2 as [T2 _]. split; [|discriminate].
    destruct (remember_only H2) as (d & x & ->).
    destruct (write_row_touches H3) as (s5 & o & T5 & ->).
    eapply top_trans; [|exact T2]. apply (top_trans _ s4); [|apply top_eq; rewrite (touches_only T5); reflexivity].
    eapply top_trans; [|exact T1]. eapply top_trans; [|apply new_row_top].
    apply top_eq. rewrite (new_row_id_only H). reflexivity.
  - destruct IHexec1 as [T1 _], IHexec2 as [T2 _]. split; [|discriminate].
    eapply top_trans; [exact T1|]. eapply top_trans; [|exact T2]. apply top_eq. rewrite set_field_only. reflexivity.
  - apply frames_kept. rewrite (touches_only (render_formula_touches H)). reflexivity.
  - apply frames_kept. rewrite (touches_only (reference_touches H)). reflexivity.
  - exact IHexec.
  - destruct (random_reference_rnd H) as [x ->]. apply frames_kept. reflexivity.
Qed.

Theorem run_frames fuel : forall e tk s s' r,
  run fuel e tk s = Ok (s', r) -> frames s <> [] ->
  tl (frames s') = tl (frames s) /\ frames s' <> [] /\ (whole tk = true -> frames s' = frames s).
Proof.
  intros e tk s s' r H Hne. destruct (exec_frames (run_exec H)) as [T W].
  destruct (frames s) as [|f fs] eqn:F; [contradiction|]. destruct (T f fs F) as [f' F'].
  rewrite F' in *. splits; [reflexivity|discriminate|exact W].
Qed.

(* recipes without random_reference keep no row history at all *)
Definition rh0 : rh := mkRh [] [] [] [] [] [].

(* the shape of the state between two iterations (of a recipe without random_reference) *)
Definition boundary (e : env) (s : st) : Prop :=
  nick_objs s = [] /\ last_by_table s = [] /\ slots s = fresh_slots e /\ frames s = [mkFrame [] None] /\
  hist_tables e = [] /\ Interp.hist (rnd s) = rh0.

(* every row reachable by a persistent name holds only scalars: nothing is dropped or
   unrepresentable when the continuation is written (the premise excluding K1 / K2) *)
Definition persistable (s : st) : Prop :=
  forall h, In h (map snd (p_nicks s) ++ map snd (p_tables s)) ->
    exists c, nth_error (heap s) h = Some c /\ saved_fields (c_fields c) = Ok (c_fields c).

Lemma set_nth_same {A} (l : list A) : forall i x, nth_error l i = Some x -> set_nth i x l = l.
Proof.
  induction l as [|y r IH]; intros i x H; destruct i; cbn [nth_error set_nth] in *; try discriminate.
  - injection H as ->. reflexivity.
  - rewrite IH; auto.
Qed.

Lemma clean_handles_id hs : forall h,
  (forall x, In x hs -> exists c, nth_error h x = Some c /\ saved_fields (c_fields c) = Ok (c_fields c)) ->
  clean_handles h hs = Ok h.
Proof.
  induction hs as [|x r IH]; intros h H; cbn [clean_handles]; [reflexivity|].
  destruct (H x (or_introl eq_refl)) as (c & Hc & Hs). rewrite Hc, Hs. cbn [bind].
  assert (Hc' : mkCell (c_table c) (c_id c) (c_index c) (c_fields c) = c) by (destruct c; reflexivity).
  rewrite Hc', (set_nth_same _ _ _ Hc). apply IH. intros y Hy. apply H. right. exact Hy.
Qed.

Lemma upd_out_same s : upd_out s (out s) = s.
Proof. destruct s; reflexivity. Qed.

Theorem save_load_id e s :
  boundary e s -> persistable s ->
  exists c, save s = Ok c /\ load e c = Ok (upd_out s []).
Proof.
  intros (B1 & B2 & B3 & B4 & B5 & B6) HP. unfold save. rewrite (clean_handles_id _ _ HP). cbn [bind].
  eexists. split; [reflexivity|]. unfold load, init_hist. rewrite B5. cbn [bind].
  cbn [k_ids k_p_nicks k_p_tables k_heap k_deps k_draws].
  destruct s as [i1 i2 i3 i4 i5 i6 i7 i8 i9 i10 [hh dd]]. cbn in *. subst. reflexivity.
Qed.

Lemma random_reference_hist e to s s' v :
  random_reference e to s = Ok (s', v) -> Interp.hist (rnd s') = Interp.hist (rnd s).
Proof.
  unfold random_reference. intros H. destruct (negb (rr_ok e)); [discriminate|].
  dbind H as [[[nick table] lo] hi]. destruct (draws (rnd s)); [discriminate|].
  destruct (_ && _); [|discriminate]. dbind H as [t i]. injection H as <- _. reflexivity.
Qed.

(* without history tables the row history never changes: nothing is recorded, and
   random_reference only consumes draws *)
Lemma exec_hist {e tk s s' r} :
  hist_tables e = [] -> exec e tk s s' r -> Interp.hist (rnd s') = Interp.hist (rnd s).
Proof.
  intros He. apply (exec_rel e (fun s s' => Interp.hist (rnd s') = Interp.hist (rnd s))); intros.
  - reflexivity.
  - congruence.
  - rewrite (touches_only H). reflexivity.
  - reflexivity.
  - rewrite set_field_only. reflexivity.
  - eapply random_reference_hist. eassumption.
  - unfold remember_history in H3. rewrite He in H3. injection H3 as <-.
    destruct (write_row_touches H4) as (s5 & o & T5 & ->).
    rewrite (touches_only T5), remember_deps_only. cbn [rnd upd_out upd_slots upd_ids upd_deps].
    rewrite H1, new_row_only, (new_row_id_only H). reflexivity.
Qed.

Theorem run_hist_empty fuel : forall e tk s s' r,
  hist_tables e = [] -> run fuel e tk s = Ok (s', r) -> Interp.hist (rnd s) = rh0 -> Interp.hist (rnd s') = rh0.
Proof. intros e tk s s' r He H <-. eapply exec_hist, run_exec; eassumption. Qed.

Lemma iteration_app e stmts c s o : iteration e stmts c (app_out o s) = liftS o (iteration e stmts c s).
Proof.
  unfold iteration. rewrite run_app. destruct (run fuel0 e (TStmts stmts c) s) as [[s1 r]|]; [|reflexivity].
  cbn [liftA bind]. change (slots_filled (app_out o s1)) with (slots_filled s1).
  destruct (slots_filled s1); [|reflexivity].
  change (stale_slot 4 (app_out o s1) (survivors (app_out o s1))) with (stale_slot 4 s1 (survivors s1)).
  destruct (stale_slot 4 s1 (survivors s1)); reflexivity.
Qed.

Lemma iterations_app k : forall e stmts c s o,
  iterations k e stmts c (app_out o s) = liftS o (iterations k e stmts c s).
Proof.
  induction k as [|k IH]; intros e stmts c s o; cbn [iterations]; [reflexivity|].
  rewrite iteration_app. destruct (iteration e stmts c s) as [s1|]; [|reflexivity]. cbn [liftS bind]. apply IH.
Qed.

Lemma iterations_resume k e stmts c s :
  iterations k e stmts c s = liftS (out s) (iterations k e stmts c (upd_out s [])).
Proof. rewrite <- iterations_app. f_equal. destruct s; reflexivity. Qed.

Lemma iterations_add k1 : forall k2 e stmts c s,
  iterations (S k1 + k2) e stmts c s =
  (do s1 <- iterations (S k1) e stmts c s; iterations k2 e stmts true s1).
Proof.
  induction k1 as [|k1 IH]; intros k2 e stmts c s.
  - cbn [Nat.add iterations]. destruct (iteration e stmts c s); reflexivity.
  - change (S (S k1) + k2)%nat with (S (S k1 + k2)). cbn [iterations].
    destruct (iteration e stmts c s) as [s1|]; [|reflexivity]. cbn [bind].
    rewrite IH. reflexivity.
Qed.

Lemma iteration_boundary e stmts c s s' :
  forallb is_obj stmts = true -> iteration e stmts c s = Ok s' -> boundary e s -> boundary e s'.
Proof.
  intros Hobj H (B1 & B2 & B3 & B4 & B5 & B6).
  destruct (iteration_exec H) as (s1 & r & E & _ & ->).
  destruct (exec_frames E) as [_ W]. pose proof (exec_hist B5 E) as H1.
  unfold boundary, reset_hist. cbn [nick_objs last_by_table slots frames rnd upd_rnd reset_slots Interp.hist].
  rewrite (W Hobj), H1, B6. splits; auto.
Qed.

Lemma iterations_boundary {k e stmts c s s'} :
  forallb is_obj stmts = true -> iterations k e stmts c s = Ok s' -> boundary e s -> boundary e s'.
Proof.
  intros Hobj. revert k c s s'. apply (iterations_preorder (fun s s' => boundary e s -> boundary e s')); [auto..|].
  intros c s s'. apply iteration_boundary, Hobj.
Qed.

Lemma init_boundary e dr : hist_tables e = [] -> boundary e (init_st e dr).
Proof. intros He. unfold boundary, init_st, init_hist. rewrite He. cbn. splits; auto. Qed.

(* a chain of runs from a given start state (run_history generalised over the start) *)
Fixpoint chain (e : env) (stmts : list stmt) (ks : list nat) (c0 : bool) (s0 : st)
  : result (list (list orow)) :=
  match ks with
  | [] => Ok []
  | k :: rest =>
    do s <- iterations k e stmts c0 s0;
    match rest with
    | [] => Ok [rows_of s]
    | _ => do c1 <- save s; do s1 <- load e c1; do tl <- chain e stmts rest true s1; Ok (rows_of s :: tl)
    end
  end.

Lemma run_history_chain r ks :
  run_history r ks None = chain (env_of r) (r_stmts r) ks false (init_st (env_of r) (r_draws r)).
Proof.
  assert (G : forall ks c, ks <> [] -> run_history r ks (Some c) =
                           (do s1 <- load (env_of r) c; chain (env_of r) (r_stmts r) ks true s1)).
  { induction ks0 as [|k rest IH]; intros c Hne; [contradiction|]. cbn [run_history chain run_one].
    destruct (load (env_of r) c) as [s1|]; [|reflexivity]. cbn [bind].
    destruct (iterations k (env_of r) (r_stmts r) true s1) as [s|]; [|reflexivity].
    cbn [bind]. destruct rest as [|k2 rest2]; [reflexivity|].
    destruct (save s) as [c1|]; [|reflexivity]. cbn [bind]. rewrite IH by discriminate.
    destruct (load (env_of r) c1); reflexivity. }
  destruct ks as [|k rest]; [reflexivity|]. cbn [run_history chain run_one]. unfold run_fresh.
  destruct (iterations k (env_of r) (r_stmts r) false (init_st (env_of r) (r_draws r))) as [s|]; [|reflexivity].
  cbn [bind]. destruct rest as [|k2 rest2]; [reflexivity|].
  destruct (save s) as [c1|]; [|reflexivity]. cbn [bind]. rewrite G by discriminate.
  destruct (load (env_of r) c1); reflexivity.
Qed.

(* the premise "the just_once rows hold only scalars" at every cut of the chain *)
Fixpoint cuts_persistable (e : env) (stmts : list stmt) (ks : list nat) (c0 : bool) (s0 : st) : Prop :=
  match ks with
  | k :: ((_ :: _) as rest) =>
    forall s, iterations k e stmts c0 s0 = Ok s ->
      persistable s /\ forall c1 s1, save s = Ok c1 -> load e c1 = Ok s1 -> cuts_persistable e stmts rest true s1
  | _ => True
  end.

Definition all_positive (ks : list nat) : Prop := Forall (fun k => (1 <= k)%nat) ks.

Lemma rows_of_app o s : rows_of (app_out o s) = (rev o ++ rows_of s)%list.
Proof. apply rev_app_distr. Qed.

Theorem chain_eq_unsplit e stmts : forall ks c0 s0 rowss,
  forallb is_obj stmts = true -> all_positive ks -> ks <> [] ->
  boundary e s0 -> out s0 = [] ->
  cuts_persistable e stmts ks c0 s0 ->
  chain e stmts ks c0 s0 = Ok rowss ->
  exists sF, iterations (fold_right Nat.add 0%nat ks) e stmts c0 s0 = Ok sF /\
             rows_of sF = concat rowss.
Proof.
  induction ks as [|k rest IH]; intros c0 s0 rowss Hobj Hpos Hne HB Hout HP H; [contradiction|].
  cbn [chain] in H. dbind H as s.
  destruct rest as [|k2 rest2].
  - injection H as <-. cbn [fold_right concat]. rewrite Nat.add_0_r, app_nil_r. exists s. auto.
  - dbind H as c1. dbind H as sl. dbind H as tl0. injection H as <-.
    inversion Hpos as [|? ? Hk Hrest]; subst.
    destruct k as [|k']; [lia|].
    pose proof (iterations_boundary Hobj E HB) as HBs.
    destruct (HP s E) as [Hps Hcuts].
    (* the loaded state is s without its output *)
    destruct (save_load_id e s HBs Hps) as (c1' & Hsave & Hload).
    rewrite E0 in Hsave. injection Hsave as <-. rewrite E1 in Hload. injection Hload as ->.
    destruct (IH true _ tl0 Hobj Hrest ltac:(discriminate) (HBs : boundary e (upd_out s [])) eq_refl
                 (Hcuts c1 _ E0 E1) E2) as (sF' & HF' & Hrows').
    exists (app_out (out s) sF'). split.
    + change (fold_right Nat.add 0%nat (S k' :: k2 :: rest2)) with (S k' + fold_right Nat.add 0%nat (k2 :: rest2))%nat.
      rewrite iterations_add, E. cbn [bind]. rewrite iterations_resume, HF'. reflexivity.
    + rewrite rows_of_app, Hrows'. reflexivity.
Qed.

Theorem split_eq_unsplit r ks rowss :
  hist_tables (env_of r) = [] ->
  forallb is_obj (r_stmts r) = true -> all_positive ks -> ks <> [] ->
  cuts_persistable (env_of r) (r_stmts r) ks false (init_st (env_of r) (r_draws r)) ->
  run_history r ks None = Ok rowss ->
  run_history r [fold_right Nat.add 0%nat ks] None = Ok [concat rowss].
Proof.
  intros Hrr Hobj Hpos Hne HP H. rewrite run_history_chain in H.
  destruct (chain_eq_unsplit _ _ _ _ _ _ Hobj Hpos Hne (init_boundary _ _ Hrr) eq_refl HP H) as (sF & HF & Hrows).
  cbn [run_history run_one]. unfold run_fresh. rewrite HF. cbn [bind]. rewrite Hrows. reflexivity.
Qed.

Theorem continuation_never_fails r k1 k2 sF :
  hist_tables (env_of r) = [] ->
  forallb is_obj (r_stmts r) = true ->
  run_fresh r (S k1 + k2) = Ok sF ->
  exists s1, run_fresh r (S k1) = Ok s1 /\
    (persistable s1 ->
     exists rows2, run_history r [S k1; k2] None = Ok [rows_of s1; rows2] /\
                   rows_of sF = (rows_of s1 ++ rows2)%list).
Proof.
  unfold run_fresh. intros Hrr Hobj H. rewrite iterations_add in H.
  destruct (iterations (S k1) (env_of r) (r_stmts r) false (init_st (env_of r) (r_draws r))) as [s1|] eqn:E; [|discriminate].
  cbn [bind] in H. exists s1. split; [reflexivity|]. intros Hps.
  pose proof (iterations_boundary Hobj E (init_boundary _ _ Hrr)) as HB.
  destruct (save_load_id _ _ HB Hps) as (c1 & Hsave & Hload).
  rewrite iterations_resume in H.
  destruct (iterations k2 (env_of r) (r_stmts r) true (upd_out s1 [])) as [s2|] eqn:E2; [|discriminate].
  injection H as <-. exists (rows_of s2). split.
  - cbn [run_history run_one]. unfold run_fresh. rewrite E. cbn [bind]. rewrite Hsave. cbn [bind].
    rewrite Hload. cbn [bind]. rewrite E2. reflexivity.
  - apply rows_of_app.
Qed.

Definition resolves_in (rows : list orow) (T : string) (i : Z) : Prop :=
  exists row', In row' rows /\ fst row' = T /\ orow_id row' = [i].

Lemma resolves_in_app_l a b T i : resolves_in a T i -> resolves_in (a ++ b) T i.
Proof. intros (r & Hr & H). exists r. split; [apply in_or_app; auto|exact H]. Qed.
Lemma resolves_in_app_r a b T i : resolves_in b T i -> resolves_in (a ++ b) T i.
Proof. intros (r & Hr & H). exists r. split; [apply in_or_app; auto|exact H]. Qed.

(* [prev]: the rows of the runs before this chain *)
Theorem chain_no_dangling e stmts : forall ks c0 s0 rowss prev,
  start_ok s0 -> Bd s0 -> V s0 ->
  (forall T, hidden T = false -> Permutation (written T prev) (Zseq 1 (Z.to_nat (last_id s0 T)))) ->
  chain e stmts ks c0 s0 = Ok rowss ->
  forall row n T i, In row (concat rowss) -> In (n, ORef T i) (snd row) -> hidden T = false ->
    resolves_in (prev ++ concat rowss) T i.
Proof.
  induction ks as [|k rest IH]; intros c0 s0 rowss prev Hs0 HB HV0 Hprev H row n T i Hr Hin HT;
    cbn [chain] in H; [injection H as <-; destruct Hr|].
  dbind H as s.
  destruct (iterations_J E (start_J _ Hs0 HB) HV0) as (HJs & _ & HVs).
  destruct (ids_dense_run _ _ _ _ _ _ Hs0 E) as [Hok HD].
  assert (Hthis : forall row n T i, In row (rows_of s) -> In (n, ORef T i) (snd row) -> hidden T = false ->
                  resolves_in (prev ++ rows_of s) T i).
  { intros row1 n1 T1 i1 Hr1 Hin1 HT1. unfold rows_of in Hr1. apply in_rev in Hr1.
    destruct (no_dangling_run _ _ _ _ _ _ Hs0 HB HV0 E row1 n1 T1 i1 Hr1 Hin1 HT1) as [Hold|(r' & Hr' & Hk)].
    - apply resolves_in_app_l, written_In.
      apply (Permutation_in _ (Permutation_sym (Hprev T1 HT1))). apply Zseq_In. lia.
    - apply resolves_in_app_r. exists r'. split; [unfold rows_of; rewrite <- in_rev; exact Hr'|exact Hk]. }
  destruct rest as [|k2 rest2].
  - injection H as <-. cbn [concat] in *. rewrite app_nil_r in *. eapply Hthis; eassumption.
  - dbind H as c1. dbind H as sl. dbind H as tl0. injection H as <-. cbn [concat] in Hr |- *.
    apply in_app_or in Hr. destruct Hr as [Hr|Hr].
    + rewrite app_assoc. apply resolves_in_app_l. eapply Hthis; eassumption.
    + rewrite app_assoc.
      eapply (IH true sl tl0 (prev ++ rows_of s)); try eassumption.
      * destruct Hok as (_ & _ & Hnn & _). eapply load_start_ok; [exact E1|]. intros U.
        rewrite (save_ids E0). apply (Hnn U).
      * eapply load_Bd; [exact (proj1 HJs)|exact E0|exact E1].
      * eapply load_V; [exact HVs|exact (proj1 HJs)|exact E0|exact E1].
      * intros U HU. rewrite (resume_after_highest e _ _ _ U E0 E1). destruct (HD U) as [Hle HP].
        destruct Hs0 as (_ & _ & Hnn0 & _). rewrite (Zseq_next (last_id s0 U)) by (split; [apply Hnn0|exact Hle]).
        unfold written. rewrite flat_map_app. apply Permutation_app; [apply Hprev, HU|].
        eapply Permutation_trans; [apply written_rev|exact (HP HU)].
Qed.

