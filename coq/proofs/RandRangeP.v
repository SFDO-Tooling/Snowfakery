(* random_range: the while loop emits, in order, the residues below [size] of an orbit of the
   generator's map; over a full period these are all of [0, size) once (LcgP.full_period).
   UpdatableRandomRange: every state reachable by next / set_new_range satisfies [Drawn],
   which records what has been produced; the three clauses of C12 and the call-site
   invariant of RowHistoryP.v are read off from it. *)
From Coq Require Import ZArith List Lia Bool Permutation ZifyBool.
From SFV Require Import Base RandRange.
From SFV.P Require Import BaseP LcgP.
Import ListNotations. Open Scope Z_scope.

Definition kept (g : lcg) (n : nat) (x : Z) : list Z :=
  filter (fun v => v <? g_size g) (orbit (g_mult g) (g_off g) (g_mod g) n x).

Lemma kept_S g n x :
  kept g (S n) x = if x <? g_size g then x :: kept g n (lcg_f g x) else kept g n (lcg_f g x).
Proof. reflexivity. Qed.

(* [N] examined values suffice as soon as they hold all that is still missing *)
Lemma drain_spec N : forall g fuel,
  Z.of_nat (length (kept g N (g_value g))) = g_size g - g_found g ->
  (N < fuel)%nat ->
  gen_drain fuel g = Ok (map (fun v => v + g_start g) (kept g N (g_value g))).
Proof.
  induction N as [|N IH]; intros g [|fuel] Hcnt Hf; try lia; cbn [gen_drain].
  - change (kept g 0 (g_value g)) with (@nil Z) in *. cbn [length] in Hcnt.
    destruct (g_found g <? g_size g) eqn:E; [exfalso; lia|reflexivity].
  - rewrite kept_S in *. destruct (g_found g <? g_size g) eqn:E.
    + destruct (g_value g <? g_size g); cbn [length] in Hcnt;
        rewrite IH by (unfold kept in *; cbn [g_size g_mult g_off g_mod g_found g_value] in *; lia);
        reflexivity.
    + replace (if g_value g <? g_size g then _ else _) with (@nil Z); [reflexivity|].
      symmetry. apply length_zero_iff_nil. lia.
Qed.

Definition gen_ok (g : lcg) : Prop :=
  1 <= g_size g /\ g_mult g mod 4 = 1 /\ Z.odd (g_off g) = true /\
  exists k : nat, g_mod g = 2 ^ Z.of_nat k /\ g_size g <= g_mod g.

Lemma kept_full g x :
  gen_ok g -> 0 <= x < g_mod g ->
  Permutation (kept g (Z.to_nat (g_mod g)) x) (Zseq 0 (Z.to_nat (g_size g))).
Proof.
  intros (Hsz & Hmu & Hoff & k & Hmod & Hle) Hx. unfold kept. rewrite Hmod in *.
  destruct (full_period _ _ k Hmu Hoff x Hx) as [Hnd Hall].
  apply NoDup_Permutation; [apply NoDup_filter, Hnd|apply Zseq_NoDup|].
  intros y. rewrite filter_In, Zseq_In. split.
  - intros [Hin Hlt]. apply (orbit_in_range _ _ _ (m_pos k) _ _ _ Hx) in Hin. lia.
  - intros Hy. split; [apply Hall|]; lia.
Qed.

Definition Ginv (g : lcg) (em : list Z) : Prop :=
  exists rest, gen_drain (gen_fuel g) g = Ok rest /\
               Permutation (em ++ rest) (Zseq (g_start g) (Z.to_nat (g_size g))).

Lemma gen_ok_Ginv g : gen_ok g -> g_found g = 0 -> 0 <= g_value g <= g_size g -> Ginv g [].
Proof.
  intros Hok Hf Hv. pose proof Hok as (Hs1 & _ & _ & k & Hmod & Hle).
  assert (HN : exists N x, (N < gen_fuel g)%nat /\ 0 <= x < g_mod g /\
                           kept g N (g_value g) = kept g (Z.to_nat (g_mod g)) x).
  { unfold gen_fuel. destruct (Z_lt_dec (g_value g) (g_mod g)) as [Hin|Hout].
    - exists (Z.to_nat (g_mod g)), (g_value g). split; [lia|split; [lia|reflexivity]].
    - (* value = size = modulus, outside the residue system: the first value examined is
         skipped, then one full period *)
      exists (S (Z.to_nat (g_mod g))), (lcg_f g (g_value g)).
      split; [lia|split; [apply Z.mod_pos_bound; lia|]].
      rewrite kept_S. replace (g_value g <? g_size g) with false by lia. reflexivity. }
  destruct HN as (N & x & HN & Hx & E). pose proof (kept_full g x Hok Hx) as HP.
  exists (map (fun v => v + g_start g) (kept g N (g_value g))). split.
  - apply (drain_spec N); [|exact HN]. rewrite E, (Permutation_length HP), Zseq_length. lia.
  - rewrite E. change (g_start g) with (0 + g_start g) at 2. rewrite <- Zseq_map_add.
    apply Permutation_map, HP.
Qed.

Lemma new_gen_spec start stop v0 o0 :
  start < stop ->
  match new_gen start stop v0 o0 with
  | Ok g => Ginv g [] /\ g_start g = start /\ g_size g = stop - start
  | Err e => e = BadOracle /\ ~ (0 <= v0 <= stop - start /\ 0 <= o0 <= stop - start)
  end.
Proof.
  intros Hlt. unfold new_gen.
  destruct (stop - start <? 0) eqn:E0; [lia|].
  destruct (negb _) eqn:E; [split; [reflexivity|lia]|].
  set (size := stop - start) in *. assert (Hs : 0 < size) by (unfold size; lia).
  split; [|split; reflexivity].
  apply gen_ok_Ginv; cbn [g_size g_found g_value]; [|reflexivity|lia].
  unfold gen_ok. cbn [g_size g_mult g_off g_mod]. splits.
  - lia.
  - rewrite Z.add_comm, Z.mul_comm. apply Z_mod_plus_full.
  - rewrite Z.add_comm, Z.mul_comm. apply Z.odd_add_mul_2.
  - exists (Z.to_nat (Z.log2_up size)). unfold bit_length_pred.
    destruct (size <=? 0) eqn:E3; [lia|].
    rewrite Z2Nat.id by apply Z.log2_up_nonneg.
    split; [reflexivity|apply Z.log2_log2_up_spec, Hs].
Qed.

(* C12, first clause *)
Theorem range_is_permutation start stop v0 o0 :
  start < stop -> 0 <= v0 <= stop - start -> 0 <= o0 <= stop - start ->
  exists l, random_range_list start stop v0 o0 = Ok l /\
            Permutation l (Zseq start (Z.to_nat (stop - start))).
Proof.
  intros Hlt Hv Ho. unfold random_range_list.
  pose proof (new_gen_spec start stop v0 o0 Hlt) as S.
  destruct (new_gen start stop v0 o0) as [g|e]; [|tauto].
  destruct S as ((l & Hd & HP) & Hst & Hsz). exists l. rewrite Hst, Hsz in HP. auto.
Qed.

Lemma drain_mono fuel : forall g rest fuel2,
  gen_drain fuel g = Ok rest -> (fuel <= fuel2)%nat -> gen_drain fuel2 g = Ok rest.
Proof.
  induction fuel as [|fuel IH]; intros g rest [|fuel2] H Hle; try discriminate; try lia.
  cbn [gen_drain] in *.
  destruct (g_found g <? g_size g); [|assumption].
  destruct (g_value g <? g_size g); [|apply IH; [assumption|lia]].
  destruct (gen_drain fuel _) as [r|e] eqn:E; [|discriminate].
  rewrite (IH _ _ fuel2 E) by lia. exact H.
Qed.

Lemma next_drain fuel : forall g rest,
  gen_drain fuel g = Ok rest ->
  match gen_next fuel g with
  | Ok None => rest = []
  | Ok (Some (v, g')) =>
    (g_start g', g_size g', g_mod g') = (g_start g, g_size g, g_mod g) /\
    gen_drain fuel g' = Ok (tl rest) /\ rest = v :: tl rest
  | Err _ => False
  end.
Proof.
  induction fuel as [|fuel IH]; intros g rest H; [discriminate|].
  cbn [gen_drain] in H. cbn [gen_next].
  destruct (g_found g <? g_size g); [|congruence].
  destruct (g_value g <? g_size g).
  - destruct (gen_drain fuel _) as [r|e] eqn:E; [|discriminate].
    injection H as <-. split; [reflexivity|]. split; [|reflexivity].
    apply (drain_mono fuel); [exact E|lia].
  - specialize (IH _ _ H). destruct (gen_next fuel _) as [[[v g']|]|e]; try assumption.
    destruct IH as (Hp & Hd & Hr). split; [exact Hp|]. split; [|exact Hr].
    apply (drain_mono fuel); [exact Hd|lia].
Qed.

Lemma Ginv_next g em :
  Ginv g em ->
  match gen_next (gen_fuel g) g with
  | Ok None => Permutation em (Zseq (g_start g) (Z.to_nat (g_size g)))
  | Ok (Some (v, g')) => Ginv g' (em ++ [v]) /\ g_start g' = g_start g /\ g_size g' = g_size g
  | Err _ => False
  end.
Proof.
  intros (rest & Hd & HP). pose proof (next_drain _ _ _ Hd) as H.
  destruct (gen_next (gen_fuel g) g) as [[[v g']|]|e]; [| |assumption].
  - destruct H as (Hp & Hd' & Hr). injection Hp as Hst Hsz Hmod. split; [|auto].
    exists (tl rest). unfold gen_fuel in *. rewrite Hst, Hsz, Hmod, <- app_assoc. cbn [app].
    rewrite <- Hr. auto.
  - subst rest. rewrite app_nil_r in HP. exact HP.
Qed.

Lemma Ginv_emitted g em :
  Ginv g em -> NoDup em /\ forall v, In v em -> g_start g <= v < g_start g + g_size g.
Proof.
  intros (rest & _ & HP). split.
  - apply (NoDup_app_l em rest), (Permutation_NoDup (Permutation_sym HP)), Zseq_NoDup.
  - intros v Hv. apply (or_introl (B := In v rest)), in_or_app, (Permutation_in _ HP), Zseq_In in Hv. lia.
Qed.

Definition gs_start (gs : gstate) : Z := match gs with GNew a _ => a | GRun g => g_start g end.
Definition gs_size (gs : gstate) : Z := match gs with GNew a b => b - a | GRun g => g_size g end.
Definition GSinv (gs : gstate) (em : list Z) : Prop :=
  match gs with GNew _ _ => em = [] | GRun g => Ginv g em end.

(* [em]: what the current generator has emitted; [prev]: what earlier generators of the
   current chain of ranges (same u_start) emitted *)
Record Uinv (u : urr) (prev em : list Z) : Prop := {
  ui_g : GSinv (u_gen u) em;
  ui_min : gs_start (u_gen u) = u_min u;
  ui_omax : gs_start (u_gen u) + gs_size (u_gen u) = u_orig_max u;
  ui_pos : 1 <= gs_size (u_gen u);
  ui_cmax : u_orig_max u <= u_cur_max u;
  ui_lo : u_start u <= u_min u;
  ui_prev : forall v, In v prev -> u_start u <= v < u_min u;
  ui_nd : NoDup prev
}.

Definition all_of (prev em : list Z) := prev ++ em.

Lemma Uinv_order u prev em :
  Uinv u prev em -> u_start u <= u_min u < u_orig_max u /\ u_orig_max u <= u_cur_max u.
Proof. intros []. lia. Qed.

Lemma Uinv_all u prev em :
  Uinv u prev em ->
  NoDup (prev ++ em) /\ forall v, In v (prev ++ em) -> u_start u <= v < u_orig_max u.
Proof.
  intros I. pose proof (Uinv_order _ _ _ I) as Hord. destruct I as [Hg Hmin Homax _ _ _ Hprev Hnd].
  assert (Hem : NoDup em /\ forall v, In v em -> u_min u <= v < u_orig_max u).
  { rewrite <- Homax, <- Hmin. destruct (u_gen u); [|apply Ginv_emitted, Hg].
    cbn [GSinv] in Hg. subst em. split; [constructor|intros v []]. }
  destruct Hem as [Hnd' Hem]. split.
  - apply NoDup_app_intro; [assumption|assumption|].
    intros x Hp He. apply Hprev in Hp. apply Hem in He. lia.
  - intros v Hv. apply in_app_or in Hv. destruct Hv as [Hv|Hv]; [apply Hprev in Hv|apply Hem in Hv]; lia.
Qed.

Lemma force_inv u prev em :
  Uinv u prev em ->
  match force u with
  | Ok (g, orc) =>
    Ginv g em /\ g_start g = u_min u /\ g_start g + g_size g = u_orig_max u /\ 1 <= g_size g
  | Err e => e = BadOracle
  end.
Proof.
  intros [Hg Hmin Homax Hpos _ _ _ _]. unfold force.
  destruct (u_gen u) as [a b|g0]; cbn [GSinv gs_start gs_size] in *; [|auto].
  destruct (u_oracle u) as [|[v0 o0] rest]; [reflexivity|].
  pose proof (new_gen_spec a b v0 o0 ltac:(lia)) as S.
  destruct (new_gen a b v0 o0) as [g|e]; cbn [bind]; [|apply S].
  destruct S as (HG & Hst & Hsz). subst em. split; [exact HG|lia].
Qed.

Lemma set_immediately_inv a b oracle :
  match set_immediately a b oracle with
  | Ok u => u_start u = a /\ u_min u = a /\ u_cur_max u = b /\ Uinv u [] []
  | Err e => e = Internal "AssertionError"
  end.
Proof.
  unfold set_immediately. destruct (negb (a <? b)) eqn:E; [reflexivity|].
  splits; try reflexivity.
  constructor; cbn [u_start u_min u_orig_max u_cur_max u_gen GSinv gs_start gs_size]; try lia;
    [reflexivity|intros v []|constructor].
Qed.

Lemma Zseq_two_parts a b c p e :
  a <= b <= c ->
  Permutation p (Zseq a (Z.to_nat (b - a))) -> Permutation e (Zseq b (Z.to_nat (c - b))) ->
  Permutation (p ++ e) (Zseq a (Z.to_nat (c - a))).
Proof.
  intros H Hp He. replace (Z.to_nat (c - a)) with (Z.to_nat (b - a) + Z.to_nat (c - b))%nat by lia.
  rewrite Zseq_app. replace (a + Z.of_nat (Z.to_nat (b - a))) with b by lia.
  apply Permutation_app; assumption.
Qed.

(* [old]: the values produced before the last move to a disjoint range, all below the
   present u_start; [cur]: those produced since, which fill [u_start, u_min) completely and
   go on with what the running generator has emitted.  (RowHistoryP.SiteInv has this body.) *)
Definition Drawn (u : urr) (old cur : list Z) : Prop :=
  exists prev em,
    Uinv u prev em /\
    Permutation prev (Zseq (u_start u) (Z.to_nat (u_min u - u_start u))) /\
    Permutation cur (prev ++ em) /\
    NoDup old /\ (forall v, In v old -> v < u_start u).

Lemma Drawn_facts u old cur :
  Drawn u old cur ->
  NoDup (old ++ cur) /\ (forall v, In v cur -> u_start u <= v < u_orig_max u) /\
  u_start u < u_orig_max u <= u_cur_max u.
Proof.
  intros (prev & em & I & _ & HC & Hnd & Hlt).
  destruct (Uinv_all _ _ _ I) as [Hnd' Hall]. pose proof (Uinv_order _ _ _ I).
  assert (Hcur : forall v, In v cur -> u_start u <= v < u_orig_max u).
  { intros v Hv. apply Hall, (Permutation_in _ HC), Hv. }
  splits; try lia; try (apply Hcur; assumption).
  apply NoDup_app_intro; [exact Hnd|exact (Permutation_NoDup (Permutation_sym HC) Hnd')|].
  intros x Hx Hx'. apply Hlt in Hx. apply Hcur in Hx'. lia.
Qed.

Lemma Drawn_new a b o old :
  NoDup old -> (forall v, In v old -> v < a) ->
  match set_immediately a b o with
  | Ok u => u_start u = a /\ u_cur_max u = b /\ Drawn u old []
  | Err e => e = Internal "AssertionError"
  end.
Proof.
  intros Hnd Hlt. pose proof (set_immediately_inv a b o) as S.
  destruct (set_immediately a b o) as [u|e]; [|exact S]. destruct S as (Hs & Hm & Hc & I).
  splits; try assumption. exists [], []. rewrite Hm, Hs, Z.sub_diag. splits; auto; constructor.
Qed.

Lemma Drawn_init a b o :
  match urr_init a b o with
  | Ok u => u_start u = a /\ u_cur_max u = b /\ Drawn u [] []
  | Err e => e = Internal "AssertionError"
  end.
Proof.
  unfold urr_init. destruct (negb (a <? b)); [reflexivity|].
  apply Drawn_new; [constructor|intros v []].
Qed.

(* [Err e => e = BadOracle]: the fuel of gen_fuel always suffices; the only failure is a
   missing or ill-ranged random draw for a generator that starts. *)
Lemma urr_next_inv u old cur :
  Drawn u old cur ->
  match urr_next u with
  | Ok (r, u') =>
    u_start u' = u_start u /\ u_cur_max u' = u_cur_max u /\
    match r with
    | Some d => Drawn u' old (cur ++ [d])
    | None => Drawn u' old cur /\
              Permutation cur (Zseq (u_start u) (Z.to_nat (u_cur_max u - u_start u)))
    end
  | Err e => e = BadOracle
  end.
Proof.
  intros (prev & em & I & HP & HC & Hold). unfold urr_next.
  pose proof (force_inv _ _ _ I) as HF.
  destruct (force u) as [[g0 orc]|e]; cbn [bind]; [|exact HF].
  destruct HF as (HG0 & Hmin & Homax & Hpos).
  pose proof (Uinv_order _ _ _ I) as Hord. destruct (Uinv_all _ _ _ I) as [Hnd Hall].
  destruct I as [_ _ _ _ _ _ Hprev Hndp].
  pose proof (Ginv_next _ _ HG0) as HN.
  destruct (gen_next (gen_fuel g0) g0) as [[[v g']|]|e]; [| |contradiction]; cbn [bind].
  - destruct HN as (HG & Hst & Hsz). split; [reflexivity|]. split; [reflexivity|].
    exists prev, (em ++ [v]). split; [|split; [exact HP|split; [|exact Hold]]].
    + constructor; cbn; try assumption; lia.
    + rewrite app_assoc. apply Permutation_app_tail, HC.
  - assert (HPall : Permutation (prev ++ em) (Zseq (u_start u) (Z.to_nat (u_orig_max u - u_start u)))).
    { apply (Zseq_two_parts _ (u_min u)); [lia|exact HP|].
      rewrite <- Hmin, <- Homax, Z.add_simpl_l. exact HN. }
    destruct (u_cur_max u <=? u_orig_max u) eqn:E.
    + splits; try reflexivity.
      * exists prev, em. split; [|auto]. constructor; cbn; try assumption; lia.
      * replace (u_cur_max u) with (u_orig_max u) by lia. exact (Permutation_trans HC HPall).
    + (* the range was extended meanwhile: a generator for the new part *)
      destruct orc as [|[v0 o0] rest]; [reflexivity|].
      pose proof (new_gen_spec (u_orig_max u) (u_cur_max u) v0 o0 ltac:(lia)) as S.
      destruct (new_gen (u_orig_max u) (u_cur_max u) v0 o0) as [g|e]; cbn [bind]; [|apply S].
      destruct S as (HG1 & Hst & Hsz). pose proof (Ginv_next g [] HG1) as HN2.
      destruct (gen_next (gen_fuel g) g) as [[[v g']|]|e]; [| |contradiction]; cbn [bind].
      * destruct HN2 as (HG & Hst' & Hsz'). split; [reflexivity|]. split; [reflexivity|].
        exists (prev ++ em), [v]. split; [|split; [exact HPall|split; [|exact Hold]]].
        -- constructor; cbn; try assumption; lia.
        -- apply Permutation_app_tail, HC.
      * (* impossible: the fresh generator has a non-empty range *)
        apply Permutation_length in HN2. rewrite Zseq_length in HN2. cbn [length] in HN2. lia.
Qed.

(* urr_next_inv in the form RowHistoryP uses *)
Lemma Drawn_next u old cur :
  Drawn u old cur ->
  match urr_next u with
  | Ok (Some d, u') => u_start u <= d < u_cur_max u /\ ~ In d (old ++ cur) /\ Drawn u' old (cur ++ [d])
  | Ok (None, _) => Permutation cur (Zseq (u_start u) (Z.to_nat (u_cur_max u - u_start u)))
  | Err e => e = BadOracle
  end.
Proof.
  intros HD. pose proof (urr_next_inv _ _ _ HD) as S.
  destruct (urr_next u) as [[[d|] u']|e]; [|apply S|exact S]. destruct S as (Hs & Hc & HD1).
  destruct (Drawn_facts _ _ _ HD1) as (Hnd & Hcur & Hord). specialize (Hcur d (in_elt d cur [])).
  split; [lia|]. split; [|exact HD1].
  rewrite app_assoc in Hnd. apply NoDup_remove_2 in Hnd. rewrite app_nil_r in Hnd. exact Hnd.
Qed.

Lemma urr_set_inv u old cur a b :
  Drawn u old cur ->
  match urr_set_new_range u a b with
  | Ok u' =>
    u_start u' = a /\ u_cur_max u' = b /\
    if a =? u_start u then Drawn u' old cur /\ u_cur_max u <= b else Drawn u' (old ++ cur) []
  | Err e => e = Internal "AssertionError"
  end.
Proof.
  intros HD. unfold urr_set_new_range. destruct (a =? u_start u) eqn:E.
  - destruct (negb (u_cur_max u <=? b)) eqn:E2; [reflexivity|].
    splits; cbn [u_start u_cur_max]; try lia.
    destruct HD as (prev & em & [] & HD). exists prev, em. split; [constructor|]; cbn; auto. lia.
  - destruct (negb (u_orig_max u <=? a)) eqn:E2; [reflexivity|].
    destruct (Drawn_facts _ _ _ HD) as (Hnd & Hcur & Hord). destruct HD as (_ & _ & _ & _ & _ & _ & Hlt).
    apply Drawn_new; [exact Hnd|].
    intros v Hv. apply in_app_or in Hv. destruct Hv as [Hv|Hv]; [apply Hlt in Hv|apply Hcur in Hv]; lia.
Qed.

Definition extend_only (s : Z) (ops : list uop) : Prop :=
  Forall (fun o => match o with UNext => True | USet a _ => a = s end) ops.

Lemma Drawn_run ops : forall u old cur tr u',
  Drawn u old cur -> urr_run u ops = Ok (tr, u') ->
  exists old' cur',
    Drawn u' old' cur' /\ old' ++ cur' = (old ++ cur) ++ produced tr /\
    (extend_only (u_start u) ops ->
     old' = old /\ u_start u' = u_start u /\ u_cur_max u <= u_cur_max u').
Proof.
  induction ops as [|[|a b] ops IH]; intros u old cur tr u' HD H; cbn [urr_run] in H.
  - injection H as <- <-. exists old, cur. rewrite app_nil_r. split; [exact HD|]. split; [reflexivity|].
    intros _. splits; [reflexivity|reflexivity|apply Z.le_refl].
  - pose proof (urr_next_inv _ _ _ HD) as S.
    destruct (urr_next u) as [[r u1]|e]; [|discriminate]. cbn [bind] in H. destruct S as (Hs & Hc & HD1).
    destruct (urr_run u1 ops) as [[tr1 u2]|e] eqn:Hr; [|discriminate]. injection H as <- <-.
    rewrite <- Hs, <- Hc.
    assert (HD1' : Drawn u1 old (cur ++ produced [r])).
    { destruct r; cbn [produced]; [exact HD1|rewrite app_nil_r; exact (proj1 HD1)]. }
    destruct (IH _ _ _ _ _ HD1' Hr) as (old' & cur' & HD2 & E & Hext). exists old', cur'.
    split; [exact HD2|]. split; [|intros Hx; exact (Hext (Forall_inv_tail Hx))].
    rewrite E, <- !app_assoc. destruct r; reflexivity.
  - pose proof (urr_set_inv _ _ _ a b HD) as S.
    destruct (urr_set_new_range u a b) as [u1|e]; [|discriminate]. cbn [bind] in H. destruct S as (Hst & Hc & HD1).
    destruct (Z.eqb_spec a (u_start u)) as [Ea|Ea].
    + destruct HD1 as [HD1 Hle]. destruct (IH _ _ _ _ _ HD1 H) as (old' & cur' & HD2 & E & Hext).
      exists old', cur'. split; [exact HD2|]. split; [exact E|]. intros Hx.
      rewrite Hst, Ea in Hext. destruct (Hext (Forall_inv_tail Hx)) as (Ho & Hs2 & Hc2).
      splits; [exact Ho|lia|lia].
    + (* a move: what was drawn so far becomes [old] *)
      destruct (IH _ _ _ _ _ HD1 H) as (old' & cur' & HD2 & E & _). exists old', cur'.
      split; [exact HD2|]. split; [rewrite E, app_nil_r; reflexivity|].
      intros Hx. destruct (Ea (Forall_inv Hx)).
Qed.

(* C12, second clause *)
Theorem updatable_no_repeat start stop oracle ops tr :
  urr_script start stop oracle ops = Ok tr -> NoDup (produced tr).
Proof.
  unfold urr_script. intros H. pose proof (Drawn_init start stop oracle) as S.
  destruct (urr_init start stop oracle) as [u|e]; [|discriminate]. cbn [bind] in H. destruct S as (_ & _ & HD0).
  destruct (urr_run u ops) as [[tr' u']|e] eqn:Hr; [|discriminate]. injection H as <-.
  destruct (Drawn_run _ _ _ _ _ _ HD0 Hr) as (old' & cur' & HD & E & _).
  cbn [app] in E. rewrite <- E. apply (Drawn_facts _ _ _ HD).
Qed.

(* C12, third clause: extension *)
Theorem extend_complete start stop oracle ops u tr u1 u2 :
  urr_init start stop oracle = Ok u -> extend_only start ops ->
  urr_run u ops = Ok (tr, u1) -> urr_next u1 = Ok (None, u2) ->
  Permutation (produced tr) (Zseq start (Z.to_nat (u_cur_max u1 - start))) /\
  stop <= u_cur_max u1.
Proof.
  intros Hi Hext Hr Hn. pose proof (Drawn_init start stop oracle) as S. rewrite Hi in S.
  destruct S as (Hs & Hc & HD). rewrite <- Hs in Hext.
  destruct (Drawn_run _ _ _ _ _ _ HD Hr) as (old' & cur' & HD1 & E & Hx).
  destruct (Hx Hext) as (-> & Hs1 & Hc1). cbn [app] in E. subst cur'.
  pose proof (urr_next_inv _ _ _ HD1) as S. rewrite Hn in S. destruct S as (_ & _ & _ & HP).
  rewrite Hs1, Hs in HP. split; [exact HP|lia].
Qed.

(* C12, third clause: a move.  No invariant is asked of [u]: the state before the move
   plays no part. *)
Theorem move_only_new u a b u1 ops tr u2 :
  a <> u_start u -> urr_set_new_range u a b = Ok u1 ->
  extend_only a ops -> urr_run u1 ops = Ok (tr, u2) ->
  forall v, In v (produced tr) -> a <= v < u_cur_max u2.
Proof.
  intros Hne Hs Hext Hr v Hv. unfold urr_set_new_range in Hs.
  apply Z.eqb_neq in Hne. rewrite Hne in Hs. destruct (negb _); [discriminate|].
  pose proof (Drawn_new a b (u_oracle u) [] (NoDup_nil Z)) as S. rewrite Hs in S.
  destruct S as (Hst & _ & HD); [intros ? []|]. rewrite <- Hst in *.
  destruct (Drawn_run _ _ _ _ _ _ HD Hr) as (old' & cur' & HD2 & E & Hx).
  destruct (Hx Hext) as (-> & Hs2 & _). cbn [app] in E. subst cur'.
  destruct (Drawn_facts _ _ _ HD2) as (_ & Hcur & Hord). apply Hcur in Hv. lia.
Qed.
