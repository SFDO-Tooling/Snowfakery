(* C07 over the interpreter (theories/StopInterp.v).  The abstraction of Stopping.v ("an iteration is
   the number of rows of the criterion table it creates") is discharged with C01
   ([IdsP.ids_dense_run]): at every iteration boundary the id counter of a table has advanced by
   exactly the number of rows of that table delivered to the output ([counter_is_rows]). *)
From Coq Require Import ZArith List Lia Bool Permutation ZifyBool.
From SFV Require Import Base Interp StopInterp.
From SFV Require Stopping.
From SFV.P Require Import BaseP InterpP IdsP RefsP.
Import ListNotations. Open Scope Z_scope.

Theorem counter_is_rows e stmts c k s0 s T :
  start_ok s0 -> iterations k e stmts c s0 = Ok s -> hidden T = false ->
  Z.of_nat (length (written T (out s))) = last_id s T - last_id s0 T.
Proof.
  intros Hs0 H HT. destruct (ids_dense_run _ _ _ _ _ _ Hs0 H) as [_ HD].
  destruct (HD T) as [Hle HP]. specialize (HP HT).
  apply Permutation_length in HP. rewrite Zseq_length in HP. rewrite HP. lia.
Qed.

Lemma counter_monotone e stmts c k s0 s T :
  start_ok s0 -> iterations k e stmts c s0 = Ok s -> last_id s0 T <= last_id s T.
Proof.
  intros Hs0 H. destruct (ids_dense_run _ _ _ _ _ _ Hs0 H) as [_ HD]. destruct (HD T) as [Hle _]. exact Hle.
Qed.

Lemma iterations_S k e stmts c s :
  iterations (S k) e stmts c s = (do s1 <- iteration e stmts c s; iterations k e stmts true s1).
Proof. reflexivity. Qed.

Lemma iterations_cons k {e stmts c s s1} :
  iteration e stmts c s = Ok s1 -> iterations (S k) e stmts c s = iterations k e stmts true s1.
Proof. intros E. rewrite iterations_S, E. reflexivity. Qed.

Definition startv (mstart : option Z) : Z := match mstart with Some x => x | None => 1 end.

Lemma start_of_mk l mstart : Stopping.start_of (Stopping.mkIdm l mstart) = startv mstart.
Proof. reflexivity. Qed.

Lemma proper_eqb T : Stopping.proper_table T -> String.eqb T Stopping.COUNT_REPS = false.
Proof.
  intros H. destruct (String.eqb T Stopping.COUNT_REPS) eqn:E; [|reflexivity].
  apply String.eqb_eq in E. contradiction.
Qed.

(* the [s] of [Stopping.ensure_progress] *)
Definition ref_id (a : Stopping.app) (mstart : option Z) : Z :=
  if Stopping.a_rep_count a =? 0 then startv mstart - 1 else Stopping.a_starting_id a.

Lemma ensure_progress_table T N a l mstart :
  Stopping.proper_table T -> Stopping.a_crit a = Stopping.mkCrit T N ->
  Stopping.ensure_progress a (Stopping.mkIdm l mstart) =
  if l =? ref_id a mstart then Err Stopping.runtime_error
  else Ok (Stopping.mkApp (Stopping.mkCrit T N) l (Stopping.a_rep_count a)).
Proof.
  intros HT Ha. unfold Stopping.ensure_progress, Stopping.stopping_tablename, ref_id.
  rewrite Ha. cbn [Stopping.c_table]. rewrite (proper_eqb _ HT).
  cbn [Stopping.m_last]. rewrite start_of_mk. reflexivity.
Qed.

Lemma check_finished_table T N a l mstart :
  Stopping.proper_table T -> Stopping.a_crit a = Stopping.mkCrit T N ->
  Stopping.check_finished a (Stopping.mkIdm l mstart) =
  (Stopping.mkApp (Stopping.mkCrit T N) (Stopping.a_starting_id a) (Stopping.a_rep_count a + 1),
   startv mstart + N - 1 <=? l).
Proof.
  intros HT Ha. unfold Stopping.check_finished, Stopping.target_id.
  rewrite Ha. cbn [Stopping.c_table Stopping.c_count]. rewrite (proper_eqb _ HT).
  cbn [Stopping.m_last]. rewrite start_of_mk. reflexivity.
Qed.

Lemma run_until_table_S T N f e stmts c a mstart s j :
  Stopping.proper_table T -> Stopping.a_crit a = Stopping.mkCrit T N ->
  run_until (S f) e stmts c a mstart s j =
  (do s1 <- iteration e stmts c s;
   if last_id s1 T =? ref_id a mstart then Err Stopping.runtime_error
   else if startv mstart + N - 1 <=? last_id s1 T then Ok (s1, S j)
   else run_until f e stmts true
          (Stopping.mkApp (Stopping.mkCrit T N) (last_id s1 T) (Stopping.a_rep_count a + 1))
          mstart s1 (S j)).
Proof.
  intros HT Ha. cbn [run_until]. destruct (iteration e stmts c s) as [s1|x]; cbn [bind]; [|reflexivity].
  unfold crit_table. rewrite Ha. cbn [Stopping.c_table].
  rewrite (ensure_progress_table T N a _ mstart HT Ha).
  destruct (last_id s1 T =? ref_id a mstart); [reflexivity|].
  rewrite (check_finished_table T N (Stopping.mkApp (Stopping.mkCrit T N) (last_id s1 T) (Stopping.a_rep_count a)) _ mstart HT eq_refl).
  cbn [Stopping.a_starting_id Stopping.a_rep_count].
  destruct (startv mstart + N - 1 <=? last_id s1 T); reflexivity.
Qed.

Lemma run_until_spec T N mstart e stmts :
  Stopping.proper_table T ->
  forall fuel a c s j s' j',
    Stopping.a_crit a = Stopping.mkCrit T N ->
    run_until fuel e stmts c a mstart s j = Ok (s', j') ->
    exists d, j' = (j + S d)%nat /\ iterations (S d) e stmts c s = Ok s' /\
      startv mstart + N - 1 <= last_id s' T /\
      forall i si, (1 <= i <= d)%nat -> iterations i e stmts c s = Ok si ->
                   last_id si T < startv mstart + N - 1.
Proof.
  intros HT. induction fuel as [|f IH]; intros a c s j s' j' Ha H; [discriminate H|].
  rewrite (run_until_table_S T N f e stmts c a mstart s j HT Ha) in H.
  dbind H as s1.
  destruct (last_id s1 T =? ref_id a mstart); [discriminate H|].
  destruct (startv mstart + N - 1 <=? last_id s1 T) eqn:Efin.
  - injection H as <- <-. exists 0%nat.
    splits; [lia|exact (iterations_cons 0 E)|lia|intros i si Hi; lia].
  - apply IH in H; [|reflexivity]. destruct H as (d & -> & Hit & Hfin & Hearlier).
    exists (S d). splits; [lia|rewrite (iterations_cons _ E); exact Hit|exact Hfin|].
    intros [|i] si Hi Hsi; [lia|]. rewrite (iterations_cons _ E) in Hsi.
    destruct i as [|i]; [injection Hsi as <-; lia|apply (Hearlier (S i) si); [lia|exact Hsi]].
Qed.

(* The start id of a run: fresh runs have no start_ids entry (the default 1 is read) and begin
   at counter 0; a continued run reads last + 1 from the restored id manager. *)
Definition mstart_ok (mstart : option Z) (s0 : st) (T : string) : Prop :=
  startv mstart = last_id s0 T + 1.

Theorem target_first_boundary_counter e stmts c T N fuel mstart s0 s j :
  Stopping.proper_table T -> mstart_ok mstart s0 T ->
  run_until fuel e stmts c (Stopping.new_app (Some (Stopping.mkCrit T N))) mstart s0 0 = Ok (s, j) ->
  (1 <= j)%nat /\ iterations j e stmts c s0 = Ok s /\
  N <= last_id s T - last_id s0 T /\
  forall i si, (1 <= i < j)%nat -> iterations i e stmts c s0 = Ok si ->
               last_id si T - last_id s0 T < N.
Proof.
  intros HT Hm H. unfold mstart_ok in Hm.
  apply (run_until_spec T N mstart e stmts HT) in H; [|reflexivity]. destruct H as (d & -> & Hit & Hfin & He).
  splits.
  - lia.
  - exact Hit.
  - lia.
  - intros i si Hi Hsi. specialize (He i si). assert (last_id si T < startv mstart + N - 1) by (apply He; [lia|exact Hsi]). lia.
Qed.

Theorem target_first_boundary_rows {e stmts c T N fuel mstart s0 s j} :
  Stopping.proper_table T -> hidden T = false -> start_ok s0 -> mstart_ok mstart s0 T ->
  run_until fuel e stmts c (Stopping.new_app (Some (Stopping.mkCrit T N))) mstart s0 0 = Ok (s, j) ->
  (1 <= j)%nat /\ iterations j e stmts c s0 = Ok s /\
  N <= Z.of_nat (length (written T (out s))) /\
  forall i si, (1 <= i < j)%nat -> iterations i e stmts c s0 = Ok si ->
               Z.of_nat (length (written T (out si))) < N.
Proof.
  intros HT Hv Hs0 Hm H.
  destruct (target_first_boundary_counter _ _ _ _ _ _ _ _ _ _ HT Hm H) as (Hj & Hit & Hfin & He).
  splits; [exact Hj|exact Hit| |].
  - rewrite (counter_is_rows _ _ _ _ _ _ _ Hs0 Hit Hv). exact Hfin.
  - intros i si Hi Hsi. rewrite (counter_is_rows _ _ _ _ _ _ _ Hs0 Hsi Hv). apply (He i si Hi Hsi).
Qed.

(* invariant of the application object between iterations: the progress check compares with
   the counter value of the previous boundary (the run's start value at the first one) *)
Definition app_inv (a : Stopping.app) (mstart : option Z) (s : st) (T : string) : Prop :=
  0 <= Stopping.a_rep_count a /\ ref_id a mstart = last_id s T.

Lemma app_inv_new sc mstart s0 T : mstart_ok mstart s0 T -> app_inv (Stopping.new_app sc) mstart s0 T.
Proof.
  unfold app_inv, ref_id, mstart_ok. intros H. cbn [Stopping.new_app Stopping.a_rep_count Stopping.a_starting_id].
  split; [lia|]. change (0 =? 0) with true. cbv iota. lia.
Qed.

Lemma app_inv_step T N r mstart s1 :
  0 <= r -> app_inv (Stopping.mkApp (Stopping.mkCrit T N) (last_id s1 T) (r + 1)) mstart s1 T.
Proof.
  intros Hr. unfold app_inv, ref_id. cbn [Stopping.a_rep_count Stopping.a_starting_id].
  split; [lia|]. destruct (r + 1 =? 0) eqn:E; [lia|reflexivity].
Qed.

Lemma run_until_errors T N mstart e stmts :
  Stopping.proper_table T ->
  forall fuel a c s j x,
    Stopping.a_crit a = Stopping.mkCrit T N -> app_inv a mstart s T ->
    run_until fuel e stmts c a mstart s j = Err x ->
    (exists d si, iterations d e stmts c s = Ok si /\ iterations (S d) e stmts c s = Err x) \/
    (x = Stopping.runtime_error /\ exists d si si',
        iterations d e stmts c s = Ok si /\ iterations (S d) e stmts c s = Ok si' /\
        last_id si' T = last_id si T) \/
    (x = OutOfFuel /\ exists si, iterations fuel e stmts c s = Ok si /\
        last_id s T + Z.of_nat fuel <= last_id si T /\
        ((0 < fuel)%nat -> last_id si T < startv mstart + N - 1)).
Proof.
  intros HT. induction fuel as [|f IH]; intros a c s j x Ha [Hr Href] H.
  - injection H as <-. right; right. split; [reflexivity|]. exists s. splits; [reflexivity|lia|lia].
  - rewrite (run_until_table_S T N f e stmts c a mstart s j HT Ha) in H.
    destruct (iteration e stmts c s) as [s1|y] eqn:E; cbn [bind] in H.
    2:{ injection H as <-. left. exists 0%nat, s. split; [reflexivity|]. rewrite iterations_S, E. reflexivity. }
    pose proof (iterations_cons 0 E) as E1.
    destruct (last_id s1 T =? ref_id a mstart) eqn:Eprog.
    { injection H as <-. right; left. split; [reflexivity|]. exists 0%nat, s, s1. splits; [reflexivity|exact E1|lia]. }
    destruct (startv mstart + N - 1 <=? last_id s1 T) eqn:Efin; [discriminate H|].
    pose proof (iteration_mono E T) as M1.
    apply IH in H; [|reflexivity|apply app_inv_step; exact Hr].
    (* what the rest of the loop reports, with the first iteration in front *)
    destruct H as [(d & si & H1 & H2)|[(-> & d & si & si' & H1 & H2 & H3)|(-> & si & H1 & H2 & H3)]].
    + left. exists (S d), si. rewrite !(iterations_cons _ E). auto.
    + right; left. split; [reflexivity|]. exists (S d), si, si'. rewrite !(iterations_cons _ E). auto.
    + right; right. split; [reflexivity|]. exists si. rewrite (iterations_cons _ E).
      splits; [exact H1|lia|]. intros _. destruct f as [|f]; [injection H1 as <-; lia|apply H3; lia].
Qed.

Lemma run_until_err T N mstart e stmts :
  Stopping.proper_table T ->
  forall fuel a c s j x,
    Stopping.a_crit a = Stopping.mkCrit T N -> app_inv a mstart s T ->
    run_until fuel e stmts c a mstart s j = Err x ->
    (exists d si, iterations d e stmts c s = Ok si /\ iterations (S d) e stmts c s = Err x) \/
    (x = Stopping.runtime_error /\ exists d si si',
        iterations d e stmts c s = Ok si /\ iterations (S d) e stmts c s = Ok si' /\
        last_id si' T = last_id si T) \/
    (x = OutOfFuel /\ exists si, iterations fuel e stmts c s = Ok si).
Proof.
  intros HT fuel a c s j x Ha Hi H.
  destruct (run_until_errors T N mstart e stmts HT _ _ _ _ _ _ Ha Hi H) as [H1|[H1|(Hx & si & H1 & _)]]; eauto.
Qed.

Lemma run_until_no_progress T N mstart e stmts :
  Stopping.proper_table T ->
  forall d fuel a c s j si si',
    Stopping.a_crit a = Stopping.mkCrit T N -> app_inv a mstart s T ->
    (d < fuel)%nat ->
    iterations d e stmts c s = Ok si -> iterations (S d) e stmts c s = Ok si' ->
    last_id si' T = last_id si T ->
    (forall i sa sb, (i < d)%nat -> iterations i e stmts c s = Ok sa -> iterations (S i) e stmts c s = Ok sb ->
                     last_id sb T <> last_id sa T /\ last_id sb T < startv mstart + N - 1) ->
    run_until fuel e stmts c a mstart s j = Err Stopping.runtime_error.
Proof.
  intros HT. induction d as [|d IH]; intros fuel a c s j si si' Ha [Hr Href] Hf H1 H2 Hsame Hgood;
    (destruct fuel as [|f]; [lia|]);
    rewrite (run_until_table_S T N f e stmts c a mstart s j HT Ha);
    rewrite iterations_S in H2;
    (destruct (iteration e stmts c s) as [s1|] eqn:E; cbn [bind] in H2 |- *; [|discriminate H2]).
  - injection H1 as <-. injection H2 as <-.
    replace (last_id s1 T =? ref_id a mstart) with true by lia. reflexivity.
  - rewrite iterations_S, E in H1.
    destruct (Hgood 0%nat s s1) as [Hne Hlt]; [lia|reflexivity|exact (iterations_cons 0 E)|].
    replace (last_id s1 T =? ref_id a mstart) with false by lia.
    replace (startv mstart + N - 1 <=? last_id s1 T) with false by lia.
    apply (IH f _ true s1 (S j) si si'); try assumption; [reflexivity|apply app_inv_step; exact Hr|lia|].
    intros i sa sb Hi Ha' Hb'. apply (Hgood (S i) sa sb); [lia| |]; rewrite (iterations_cons _ E); assumption.
Qed.

(* Every boundary that passes the progress check advances the counter, so after at most
   (target - counter) iterations the run has ended one way or another: more fuel than that
   changes nothing. *)
Lemma run_until_fuel_stable T N mstart e stmts :
  Stopping.proper_table T ->
  forall f1 f2 a c s j,
    Stopping.a_crit a = Stopping.mkCrit T N -> app_inv a mstart s T -> J s -> V s ->
    last_id s T < startv mstart + N - 1 ->
    startv mstart + N - 1 - last_id s T <= Z.of_nat f1 ->
    startv mstart + N - 1 - last_id s T <= Z.of_nat f2 ->
    run_until f1 e stmts c a mstart s j = run_until f2 e stmts c a mstart s j.
Proof.
  intros HT. induction f1 as [|f1 IH]; intros f2 a c s j Ha [Hr Href] HJ HV Hlt H1 H2; [lia|].
  destruct f2 as [|f2]; [lia|].
  rewrite !(run_until_table_S T N _ e stmts c a mstart s j HT Ha).
  destruct (iteration e stmts c s) as [s1|y] eqn:E; cbn [bind]; [|reflexivity].
  destruct (last_id s1 T =? ref_id a mstart) eqn:Eprog; [reflexivity|].
  destruct (startv mstart + N - 1 <=? last_id s1 T) eqn:Efin; [reflexivity|].
  destruct (iteration_J _ _ _ _ _ E HJ HV) as (J1 & M1 & V1). specialize (M1 T).
  apply IH; [reflexivity|apply app_inv_step; exact Hr|exact J1|exact V1|lia|lia|lia].
Qed.

Theorem target_fuel_N_suffices e stmts c T N mstart s0 fuel :
  Stopping.proper_table T -> mstart_ok mstart s0 T -> J s0 -> V s0 -> 1 <= N ->
  (Z.to_nat N <= fuel)%nat ->
  run_until fuel e stmts c (Stopping.new_app (Some (Stopping.mkCrit T N))) mstart s0 0 =
  run_until (Z.to_nat N) e stmts c (Stopping.new_app (Some (Stopping.mkCrit T N))) mstart s0 0.
Proof.
  intros HT Hm HJ HV HN Hf. pose proof Hm as Hm'. unfold mstart_ok in Hm'.
  apply (run_until_fuel_stable T N mstart e stmts HT); try assumption; try lia; [reflexivity|].
  apply app_inv_new. exact Hm.
Qed.

(* [Err OutOfFuel] has two sources: the fuel of this loop, and the evaluator's [fuel0] inside one of the
   recipe's iterations. *)
Lemma run_until_exhausted T N mstart e stmts :
  Stopping.proper_table T ->
  forall fuel a c s j,
    Stopping.a_crit a = Stopping.mkCrit T N -> app_inv a mstart s T -> J s -> V s ->
    run_until fuel e stmts c a mstart s j = Err OutOfFuel ->
    (exists d si, iterations d e stmts c s = Ok si /\ iterations (S d) e stmts c s = Err OutOfFuel) \/
    (exists si, iterations fuel e stmts c s = Ok si /\
                last_id s T + Z.of_nat fuel <= last_id si T /\
                ((0 < fuel)%nat -> last_id si T < startv mstart + N - 1)).
Proof.
  intros HT fuel a c s j Ha Hi _ _ H.
  destruct (run_until_errors T N mstart e stmts HT _ _ _ _ _ _ Ha Hi H) as [H1|[[Hx _]|[_ H1]]];
    [left; exact H1|discriminate Hx|right; exact H1].
Qed.

Lemma run_until_reps_S k f e stmts c a mstart s j :
  Stopping.a_crit a = Stopping.mkCrit Stopping.COUNT_REPS k ->
  run_until (S f) e stmts c a mstart s j =
  (do s1 <- iteration e stmts c s;
   if k <=? Stopping.a_rep_count a + 1 then Ok (s1, S j)
   else run_until f e stmts true
          (Stopping.mkApp (Stopping.mkCrit Stopping.COUNT_REPS k) (Stopping.a_starting_id a) (Stopping.a_rep_count a + 1))
          mstart s1 (S j)).
Proof.
  intros Ha. cbn [run_until]. destruct (iteration e stmts c s) as [s1|x]; cbn [bind]; [|reflexivity].
  unfold Stopping.ensure_progress, Stopping.stopping_tablename. rewrite Ha. cbn [Stopping.c_table].
  change (String.eqb Stopping.COUNT_REPS Stopping.COUNT_REPS) with true. cbv iota.
  unfold Stopping.check_finished. rewrite Ha. cbn [Stopping.c_table Stopping.c_count].
  change (String.eqb Stopping.COUNT_REPS Stopping.COUNT_REPS) with true. cbv iota.
  cbn [Stopping.a_rep_count Stopping.a_starting_id].
  destruct (k <=? Stopping.a_rep_count a + 1); reflexivity.
Qed.

Lemma run_until_reps k mstart e stmts :
  forall n fuel a c s j,
    Stopping.a_crit a = Stopping.mkCrit Stopping.COUNT_REPS k ->
    (1 <= n)%nat -> k = Stopping.a_rep_count a + Z.of_nat n -> (n <= fuel)%nat ->
    run_until fuel e stmts c a mstart s j =
    (do s' <- iterations n e stmts c s; Ok (s', (j + n)%nat)).
Proof.
  induction n as [|n IH]; intros fuel a c s j Ha Hn Hk Hf; [lia|].
  destruct fuel as [|f]; [lia|].
  rewrite (run_until_reps_S k f e stmts c a mstart s j Ha), iterations_S.
  destruct (iteration e stmts c s) as [s1|x]; cbn [bind]; [|reflexivity].
  destruct n as [|n].
  - replace (k <=? Stopping.a_rep_count a + 1) with true by lia.
    cbn [iterations bind]. do 2 f_equal. lia.
  - replace (k <=? Stopping.a_rep_count a + 1) with false by lia.
    rewrite (IH f _ true s1 (S j)); [|reflexivity|lia|cbn [Stopping.a_rep_count]; lia|lia].
    destruct (iterations (S n) e stmts true s1); cbn [bind]; [|reflexivity]. do 2 f_equal. lia.
Qed.

Lemma interp_init_table T N tables :
  Stopping.proper_table T ->
  Stopping.interp_init (Stopping.new_app (Some (Stopping.mkCrit T N))) tables =
  if existsb (String.eqb T) tables then Ok tt else Err (DGE "DataGenNameError").
Proof.
  intros HT. unfold Stopping.interp_init, Stopping.stopping_tablename.
  cbn [Stopping.new_app Stopping.a_crit Stopping.c_table]. rewrite (proper_eqb _ HT).
  destruct (existsb (String.eqb T) tables); reflexivity.
Qed.

Theorem unknown_target_rejected r T N fuel c :
  Stopping.proper_table T -> ~ In T (tables_of (r_stmts r)) ->
  run_target r (Some (Stopping.mkCrit T N)) fuel c = Err (DGE "DataGenNameError").
Proof.
  intros HT Hnot. unfold run_target. rewrite (interp_init_table T N _ HT).
  destruct (existsb (String.eqb T) (tables_of (r_stmts r))) eqn:E; [|reflexivity].
  apply existsb_exists in E. destruct E as (x & Hin & <-%String.eqb_eq). contradiction.
Qed.

Theorem target_run_fresh r T N fuel s j :
  Stopping.proper_table T -> hidden T = false ->
  run_target r (Some (Stopping.mkCrit T N)) fuel None = Ok (s, j) ->
  In T (tables_of (r_stmts r)) /\ (1 <= j)%nat /\ run_fresh r j = Ok s /\
  N <= Z.of_nat (length (written T (out s))) /\
  forall i si, (1 <= i < j)%nat -> run_fresh r i = Ok si -> Z.of_nat (length (written T (out si))) < N.
Proof.
  intros HT Hv H. unfold run_target in H. rewrite (interp_init_table T N _ HT) in H.
  destruct (existsb (String.eqb T) (tables_of (r_stmts r))) eqn:E; [|discriminate H].
  apply existsb_exists in E. destruct E as (x & Hin & <-%String.eqb_eq). split; [exact Hin|].
  unfold run_fresh.
  eapply (target_first_boundary_rows HT Hv (init_start_ok _ _)); [|exact H]. reflexivity.
Qed.

Theorem target_run_continued r T N fuel c0 s0 s j :
  Stopping.proper_table T -> hidden T = false ->
  (forall U, 0 <= match lookup U (k_ids c0) with Some z => z | None => 0 end) ->
  load (env_of r) c0 = Ok s0 ->
  run_target r (Some (Stopping.mkCrit T N)) fuel (Some c0) = Ok (s, j) ->
  (1 <= j)%nat /\ iterations j (env_of r) (r_stmts r) true s0 = Ok s /\
  N <= Z.of_nat (length (written T (out s))) /\
  N <= last_id s T - last_id s0 T /\
  forall i si, (1 <= i < j)%nat -> iterations i (env_of r) (r_stmts r) true s0 = Ok si ->
               Z.of_nat (length (written T (out si))) < N.
Proof.
  intros HT Hv Hnn Hl H. unfold run_target in H. rewrite (interp_init_table T N _ HT) in H.
  destruct (existsb (String.eqb T) (tables_of (r_stmts r))); [|discriminate H].
  rewrite Hl in H. cbn [bind] in H.
  unfold crit_table in H. cbn [Stopping.new_app Stopping.a_crit Stopping.c_table] in H.
  assert (Hm : mstart_ok (mstart_of true s0 T) s0 T) by reflexivity.
  pose proof (load_start_ok Hl Hnn) as Hs0.
  destruct (target_first_boundary_rows HT Hv Hs0 Hm H) as (Hj & Hit & Hrows & He).
  destruct (target_first_boundary_counter _ _ _ _ _ _ _ _ _ _ HT Hm H) as (_ & _ & Hcnt & _).
  splits; assumption.
Qed.

Theorem target_run_fresh_fuel r T N fuel :
  Stopping.proper_table T -> 1 <= N -> (Z.to_nat N <= fuel)%nat ->
  run_target r (Some (Stopping.mkCrit T N)) fuel None =
  run_target r (Some (Stopping.mkCrit T N)) (Z.to_nat N) None.
Proof.
  intros HT HN Hf. unfold run_target. rewrite (interp_init_table T N _ HT).
  destruct (existsb (String.eqb T) (tables_of (r_stmts r))); [|reflexivity].
  apply target_fuel_N_suffices; try assumption.
  - reflexivity.
  - apply start_J; [apply init_start_ok|apply init_Bd].
  - apply init_V.
Qed.
