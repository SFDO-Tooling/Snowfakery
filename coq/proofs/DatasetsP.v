(* Proofs about theories/Datasets.v (property C17).
   Iterators: shuffle, start and new_iter are characterised once (a permutation of the file, or
   BadOracle).  A repeating Dataset.iterate is followed by the number of records it has handed out
   ([lin_at]); what is proved of it alone, inside a recipe and under per-row arguments all rests on
   [lin_new] and [lin_draw].
   Recipes: the loops of gen_rows keep whatever their rows keep ([gen_rows_inv]).  Three such
   invariants are carried through the templates: a part without calls under a key leaves that key
   alone (frame), the iterator under a key advances one record per consuming row (placement),
   the rows of one template id are counted while templates with other ids write none ([wrote]).
   CSV: the reader is run, symbol by symbol, over what the writer wrote; [after_cell] is where a
   cell leaves it.
   Records: with distinct folded names every __setitem__ appends; in general the keys of a record
   are distinct and among the folded names, hence fewer than the columns when two names fold alike.
   Macros: the call sites of an inclusion are a permutation of the macro's, renumbered, and the
   template's own. *)
From Coq Require Import ZArith List Lia Bool Permutation Arith PeanoNat.
From SFV Require Import Base Datasets.
Import ListNotations. Open Scope Z_scope.

Lemma nth_split_at {A} (l : list A) : forall q, (q < length l)%nat ->
  exists x, nth_error l q = Some x /\ skipn q l = x :: skipn (S q) l /\
            firstn (S q) l = firstn q l ++ [x].
Proof.
  induction l as [|a l IH]; intros [|q] H; cbn [length] in H; try lia.
  - exists a. auto.
  - destruct (IH q) as (x & H1 & H2 & H3); [lia|]. exists x.
    cbn [nth_error firstn app]. rewrite <- H3. auto.
Qed.

Section Proofs.
Variable R : Type.
Variable C : Type.
Variable col : R -> nat -> option C.

Notation upd := (upd R).
Notation fy := (fy R).
Notation shuffle := (shuffle R).
Notation dsref := (dsref R).
Notation iter := (iter R).
Notation start := (start R).
Notation new_iter := (new_iter R).
Notation field_draw := (field_draw R).
Notation draw_seq := (draw_seq R).

Lemma upd_length l i v : length (upd l i v) = length l.
Proof.
  revert i; induction l as [|x l IH]; intros [|i]; cbn [Datasets.upd length]; auto.
Qed.

Lemma upd_head_perm (r : list R) b x y :
  nth_error r b = Some y -> Permutation (y :: upd r b x) (x :: r).
Proof.
  revert b; induction r as [|h r IH]; intros [|b] H; cbn [nth_error] in H; try discriminate;
    cbn [Datasets.upd].
  - injection H as ->. apply perm_swap.
  - eapply perm_trans; [apply perm_swap|].
    eapply perm_trans; [apply perm_skip, IH, H|]. apply perm_swap.
Qed.

Lemma upd_nth_same (l : list R) i j x :
  nth_error l j = Some x -> nth_error (upd l i x) j = Some x.
Proof.
  revert i j; induction l as [|h l IH]; intros [|i] [|j]; cbn [Datasets.upd nth_error]; auto.
Qed.

(* x[i], x[j] = x[j], x[i]: after the first assignment position j still holds x[j], also when
   i = j, so both assignments are [upd_head_perm] *)
Lemma swap_spec l i j : (i < length l)%nat -> (j < length l)%nat ->
  exists l', swap R l i j = Ok l' /\ Permutation l' l.
Proof.
  intros Hi Hj. unfold swap.
  destruct (nth_error l i) as [xi|] eqn:Ei; [|apply nth_error_None in Ei; lia].
  destruct (nth_error l j) as [xj|] eqn:Ej; [|apply nth_error_None in Ej; lia].
  eexists. split; [reflexivity|].
  apply Permutation_cons_inv with xj.
  eapply perm_trans; [apply upd_head_perm, upd_nth_same, Ej|apply upd_head_perm, Ei].
Qed.

Fixpoint good_draws (i : nat) (orc : list Z) : Prop :=
  match i with
  | O => True
  | S i' => match orc with
            | [] => False
            | j :: rest => 0 <= j <= Z.of_nat i /\ good_draws i' rest
            end
  end.

(* the loop indexes only inside the list, so the only way to fail is the oracle *)
Lemma fy_spec i : forall l orc, (i < length l)%nat ->
  match fy i l orc with
  | Ok (l', _) => Permutation l' l
  | Err e => e = BadOracle /\ ~ good_draws i orc
  end.
Proof.
  induction i as [|i IH]; intros l orc Hi; cbn [Datasets.fy good_draws]; [reflexivity|].
  destruct orc as [|j rest]; [split; [reflexivity|intros []]|].
  destruct (Z.leb_spec 0 j); [destruct (Z.leb_spec j (Z.of_nat (S i)))|]; cbn [andb];
    try (split; [reflexivity|lia]).
  destruct (swap_spec l (S i) (Z.to_nat j)) as (l1 & -> & Hp); [lia..|]. cbn [bind].
  pose proof (Permutation_length Hp) as Hl. specialize (IH l1 rest ltac:(lia)).
  destruct (fy i l1 rest) as [[l' o]|e]; [exact (perm_trans IH Hp)|].
  destruct IH as [-> Hn]. split; [reflexivity|]. intros [_ Hg]. exact (Hn Hg).
Qed.

Lemma shuffle_spec l orc :
  match shuffle l orc with
  | Ok (l', _) => Permutation l' l
  | Err e => e = BadOracle /\ ~ good_draws (Nat.pred (length l)) orc
  end.
Proof.
  unfold Datasets.shuffle. destruct l as [|x l]; [apply perm_nil|].
  apply fy_spec. cbn [length Nat.pred]. lia.
Qed.

Lemma shuffle_perm l orc l' orc' : shuffle l orc = Ok (l', orc') -> Permutation l' l.
Proof. intros E. pose proof (shuffle_spec l orc) as H. rewrite E in H. exact H. Qed.

Lemma shuffle_total (l : list R) orc :
  good_draws (Nat.pred (length l)) orc -> exists l' orc', shuffle l orc = Ok (l', orc').
Proof.
  intros Hg. pose proof (shuffle_spec l orc) as H.
  destruct (shuffle l orc) as [[l' orc']|e]; [eauto|destruct (proj2 H Hg)].
Qed.

Lemma start_spec (d : dsref) orc :
  match start d orc with
  | Ok (res, orc') =>
    Permutation res (d_data R d) /\ (d_mode R d = Linear -> res = d_data R d /\ orc' = orc)
  | Err e => e = BadOracle
  end.
Proof.
  unfold Datasets.start. destruct (d_mode R d); [auto|].
  pose proof (shuffle_spec (d_data R d) orc) as H.
  destruct (shuffle (d_data R d) orc) as [[res o]|e]; [split; [exact H|discriminate]|apply H].
Qed.

Lemma new_iter_inv (d : dsref) orc it orc' :
  new_iter d orc = Ok (it, orc') ->
  exists res, it = mkIter R d (d_repeat R d) res /\ Permutation res (d_data R d) /\
              (d_mode R d = Linear -> res = d_data R d /\ orc' = orc).
Proof.
  unfold Datasets.new_iter. pose proof (start_spec d orc) as Hs.
  destruct (start d orc) as [[res o]|]; cbn [bind]; [|discriminate].
  intros [= <- <-]. eauto.
Qed.

Lemma new_iter_err (d : dsref) orc e : new_iter d orc = Err e -> e = BadOracle.
Proof.
  unfold Datasets.new_iter. pose proof (start_spec d orc) as Hs.
  destruct (start d orc) as [[res o]|e']; cbn [bind]; [discriminate|].
  intros [= <-]. exact Hs.
Qed.

Definition is_dge (e : err) : Prop := match e with DGE _ => True | _ => False end.

(* field_draw by the state of the iterator.  These equations are all that is used of it: unfolded,
   it carries the error texts and a branch for every kind of error. *)
Lemma field_draw_cons (d : dsref) rp x r orc :
  field_draw (mkIter R d rp (x :: r)) orc = Ok (x, mkIter R d rp r, orc).
Proof. reflexivity. Qed.

Lemma field_draw_dry (d : dsref) orc :
  exists e, is_dge e /\ field_draw (mkIter R d false []) orc = Err e.
Proof. eexists. split; [|reflexivity]. exact I. Qed.

Lemma field_draw_restart (d : dsref) orc x r o :
  start d orc = Ok (x :: r, o) -> field_draw (mkIter R d true []) orc = Ok (x, mkIter R d true r, o).
Proof.
  intros H. unfold Datasets.field_draw, iter_next. cbn [i_rest i_repeat i_ds]. rewrite H. reflexivity.
Qed.

Lemma field_draw_restart_dry (d : dsref) orc o :
  start d orc = Ok ([], o) -> exists e, is_dge e /\ field_draw (mkIter R d true []) orc = Err e.
Proof.
  intros H. eexists. unfold Datasets.field_draw, iter_next. cbn [i_rest i_repeat i_ds]. rewrite H.
  split; [|reflexivity]. exact I.
Qed.

Lemma field_draw_restart_err (d : dsref) orc :
  start d orc = Err BadOracle -> field_draw (mkIter R d true []) orc = Err BadOracle.
Proof.
  intros H. unfold Datasets.field_draw, iter_next. cbn [i_rest i_repeat i_ds]. rewrite H. reflexivity.
Qed.

Lemma draw_seq_add a : forall b (it : iter) orc,
  draw_seq (a + b) it orc =
  do '(l1, it1, orc1) <- draw_seq a it orc;
  do '(l2, it2, orc2) <- draw_seq b it1 orc1; Ok (l1 ++ l2, it2, orc2).
Proof.
  induction a as [|a IH]; intros b it orc; cbn [Nat.add Datasets.draw_seq bind].
  - destruct (draw_seq b it orc) as [[[l2 it2] orc2]|]; reflexivity.
  - destruct (field_draw it orc) as [[[x it1] orc1]|]; cbn [bind]; [|reflexivity].
    rewrite IH. destruct (draw_seq a it1 orc1) as [[[l1 it2] orc2]|]; cbn [bind]; [|reflexivity].
    destruct (draw_seq b it2 orc2) as [[[l2 it3] orc3]|]; reflexivity.
Qed.

Lemma draw_seq_app_ok a : forall b (it : iter) orc l1 it1 orc1 l2 it2 orc2,
  draw_seq a it orc = Ok (l1, it1, orc1) -> draw_seq b it1 orc1 = Ok (l2, it2, orc2) ->
  draw_seq (a + b) it orc = Ok (l1 ++ l2, it2, orc2).
Proof.
  intros b it orc l1 it1 orc1 l2 it2 orc2 H1 H2.
  rewrite draw_seq_add, H1. cbn [bind]. rewrite H2. reflexivity.
Qed.

Lemma draw_seq_length k : forall (it : iter) orc l it' orc',
  draw_seq k it orc = Ok (l, it', orc') -> length l = k.
Proof.
  induction k as [|k IH]; intros it orc l it' orc' H; cbn [Datasets.draw_seq] in H.
  - injection H as <- _ _. reflexivity.
  - destruct (field_draw it orc) as [[[x it1] orc1]|]; cbn [bind] in H; [|discriminate].
    destruct (draw_seq k it1 orc1) as [[[l1 it2] orc2]|] eqn:Hr; cbn [bind] in H; [|discriminate].
    injection H as <- _ _. cbn [length]. f_equal. eapply IH, Hr.
Qed.

Lemma draw_seq_pass : forall (rest : list R) (d : dsref) rp orc,
  draw_seq (length rest) (mkIter R d rp rest) orc = Ok (rest, mkIter R d rp [], orc).
Proof.
  induction rest as [|x r IH]; intros d rp orc; cbn [length Datasets.draw_seq]; [reflexivity|].
  rewrite field_draw_cons. cbn [bind]. rewrite IH. reflexivity.
Qed.

(* A repeating iterator over d that has handed out c records since it was made, all passes in file
   order: it stands q records into the file, q = c modulo the number n of records (q = n: the
   pass is over, the next draw starts again). *)
Definition lin_at (d : dsref) (c : nat) (it : iter) : Prop :=
  exists q, (q <= length (d_data R d))%nat /\
            (q mod length (d_data R d) = c mod length (d_data R d))%nat /\
            it = mkIter R d true (skipn q (d_data R d)).

Lemma lin_new (d : dsref) orc :
  d_mode R d = Linear -> d_repeat R d = true ->
  exists it, new_iter d orc = Ok (it, orc) /\ lin_at d 0 it.
Proof.
  intros Hm Hr. eexists. unfold Datasets.new_iter, Datasets.start. rewrite Hm, Hr.
  split; [reflexivity|]. exists 0%nat. repeat split. lia.
Qed.

Lemma lin_restart (d : dsref) orc :
  d_mode R d = Linear -> d_data R d <> [] ->
  field_draw (mkIter R d true []) orc = field_draw (mkIter R d true (d_data R d)) orc.
Proof.
  intros Hm Hne. destruct (d_data R d) as [|x r] eqn:E; [contradiction|].
  rewrite field_draw_cons. apply field_draw_restart. unfold Datasets.start. rewrite Hm, E. reflexivity.
Qed.

Lemma lin_draw (d : dsref) c it orc :
  d_mode R d = Linear -> d_data R d <> [] -> lin_at d c it ->
  exists x it', field_draw it orc = Ok (x, it', orc) /\
    nth_error (d_data R d) (c mod length (d_data R d)) = Some x /\ lin_at d (S c) it'.
Proof.
  intros Hm Hne (q & Hq & Hc & ->).
  assert (Hn : length (d_data R d) <> 0%nat) by (destruct (d_data R d); [congruence|discriminate]).
  pose proof (Nat.mod_upper_bound c _ Hn) as Hlt.
  (* it draws as from position c mod n: it stands there, or a pass is over and c mod n = 0 *)
  assert (Hd : field_draw (mkIter R d true (skipn q (d_data R d))) orc
               = field_draw (mkIter R d true (skipn (c mod length (d_data R d)) (d_data R d))) orc).
  { rewrite <- Hc. destruct (Nat.eq_dec q (length (d_data R d))) as [->|];
      [|rewrite Nat.mod_small by lia; reflexivity].
    rewrite Nat.mod_same, skipn_all by exact Hn. apply lin_restart; assumption. }
  destruct (nth_split_at (d_data R d) _ Hlt) as (x & Hx & Hs & _).
  exists x, (mkIter R d true (skipn (S (c mod length (d_data R d))) (d_data R d))).
  rewrite Hd, Hs. split; [reflexivity|]. split; [exact Hx|].
  exists (S (c mod length (d_data R d))). split; [exact Hlt|]. split; [|reflexivity].
  rewrite <- (Nat.add_1_r c), <- (Nat.add_1_r (c mod _)). apply Nat.add_mod_idemp_l, Hn.
Qed.

Lemma draw_seq_lin (d : dsref) k : d_mode R d = Linear -> d_data R d <> [] ->
  forall c it orc, lin_at d c it ->
  exists l it', draw_seq k it orc = Ok (l, it', orc) /\
    forall j, (j < k)%nat ->
      nth_error l j = nth_error (d_data R d) ((c + j) mod length (d_data R d)).
Proof.
  intros Hm Hne. induction k as [|k IH]; intros c it orc Hc; cbn [Datasets.draw_seq].
  - exists [], it. split; [reflexivity|]. intros j Hj. lia.
  - destruct (lin_draw d c it orc Hm Hne Hc) as (x & it1 & -> & Hx & Hc1). cbn [bind].
    destruct (IH (S c) it1 orc Hc1) as (l & it' & -> & Hnth). cbn [bind].
    exists (x :: l), it'. split; [reflexivity|].
    intros [|j] Hj; cbn [nth_error].
    + rewrite Nat.add_0_r. symmetry. exact Hx.
    + rewrite Hnth by lia. do 2 f_equal. lia.
Qed.

Theorem iterate_mod_n (d : dsref) (orc : list Z) (k : nat) :
  d_mode R d = Linear -> d_repeat R d = true -> d_data R d <> [] ->
  exists it l it',
    new_iter d orc = Ok (it, orc) /\
    draw_seq k it orc = Ok (l, it', orc) /\
    length l = k /\
    forall j, (j < k)%nat -> nth_error l j = nth_error (d_data R d) (j mod length (d_data R d)).
Proof.
  intros Hm Hr Hne. destruct (lin_new d orc Hm Hr) as (it & Hnew & Hc).
  destruct (draw_seq_lin d k Hm Hne 0 it orc Hc) as (l & it' & Hd & Hnth).
  exists it, l, it'. pose proof (draw_seq_length _ _ _ _ _ _ Hd). auto.
Qed.

(* n draws from between two passes (nothing left, or a complete fresh pass) are one pass *)
Lemma draw_cycle (d : dsref) rest orc l it' orc' :
  d_data R d <> [] -> rest = [] \/ Permutation rest (d_data R d) ->
  draw_seq (length (d_data R d)) (mkIter R d true rest) orc = Ok (l, it', orc') ->
  Permutation l (d_data R d) /\ it' = mkIter R d true [].
Proof.
  intros Hne [->|Hp] H.
  - pose proof (start_spec d orc) as Hs.
    destruct (d_data R d) as [|x0 r0] eqn:Hd; [contradiction|]. cbn [length Datasets.draw_seq] in H.
    destruct (start d orc) as [[[|x r] o1]|e] eqn:Hst.
    + destruct Hs as [Hs _]. apply Permutation_nil in Hs. discriminate.
    + rewrite (field_draw_restart _ _ _ _ _ Hst) in H. cbn [bind] in H.
      destruct Hs as [Hp _]. apply Permutation_length in Hp as Hl. injection Hl as Hl.
      rewrite <- Hl, draw_seq_pass in H. injection H as <- <- _. auto.
    + subst e. rewrite (field_draw_restart_err _ _ Hst) in H. discriminate.
  - rewrite <- (Permutation_length Hp), draw_seq_pass in H. injection H as <- <- _. auto.
Qed.

(* ... and so are draws c*n .. c*n+n-1 from there, for every c *)
Lemma cycles_perm (d : dsref) (c : nat) : d_data R d <> [] ->
  forall rest orc l it' orc', rest = [] \/ Permutation rest (d_data R d) ->
  draw_seq (c * length (d_data R d) + length (d_data R d)) (mkIter R d true rest) orc = Ok (l, it', orc') ->
  Permutation (firstn (length (d_data R d)) (skipn (c * length (d_data R d)) l)) (d_data R d).
Proof.
  intros Hne. set (n := length (d_data R d)).
  induction c as [|c IH]; intros rest orc1 l it' orc' Hb H.
  - destruct (draw_cycle _ _ _ _ _ _ Hne Hb H) as [Hp _].
    cbn [Nat.mul skipn]. unfold n. rewrite <- (Permutation_length Hp), firstn_all. exact Hp.
  - replace (S c * n + n)%nat with (n + (c * n + n))%nat in H by lia. rewrite draw_seq_add in H.
    destruct (draw_seq n (mkIter R d true rest) orc1) as [[[l1 it1] o1]|] eqn:H1; [|discriminate].
    destruct (draw_cycle _ _ _ _ _ _ Hne Hb H1) as [Hp ->]. cbn [bind] in H.
    destruct (draw_seq (c * n + n) (mkIter R d true []) o1) as [[[l2 it2] o2]|] eqn:H2; [|discriminate].
    injection H as <- _ _.
    pose proof (Permutation_length Hp) as Hl1. fold n in Hl1.
    rewrite skipn_app, skipn_all2, Hl1 by lia.
    replace (S c * n - n)%nat with (c * n)%nat by lia.
    exact (IH [] o1 l2 _ _ (or_introl eq_refl) H2).
Qed.

Lemma field_draw_repeat (d : dsref) rest orc :
  d_data R d <> [] ->
  match field_draw (mkIter R d true rest) orc with
  | Ok (_, it', _) => exists rest', it' = mkIter R d true rest'
  | Err e => e = BadOracle
  end.
Proof.
  intros Hne. destruct rest as [|y r]; [|rewrite field_draw_cons; eauto].
  pose proof (start_spec d orc) as Hs.
  destruct (start d orc) as [[[|y r] o]|e] eqn:Hst.
  - destruct Hs as [Hs _]. apply Permutation_nil in Hs. contradiction.
  - rewrite (field_draw_restart _ _ _ _ _ Hst). eauto.
  - subst e. rewrite (field_draw_restart_err _ _ Hst). reflexivity.
Qed.

Lemma draw_seq_err_repeat (d : dsref) k : d_data R d <> [] ->
  forall rest orc e, draw_seq k (mkIter R d true rest) orc = Err e -> e = BadOracle.
Proof.
  intros Hne. induction k as [|k IH]; intros rest orc e H; cbn [Datasets.draw_seq] in H; [discriminate|].
  pose proof (field_draw_repeat d rest orc Hne) as Hd.
  destruct (field_draw (mkIter R d true rest) orc) as [[[x it1] orc1]|e1]; cbn [bind] in H;
    [|congruence].
  destruct Hd as (rest1 & ->).
  destruct (draw_seq k (mkIter R d true rest1) orc1) as [[[l it2] orc2]|e2] eqn:Hk; [discriminate|].
  injection H as <-. exact (IH _ _ _ Hk).
Qed.

Theorem no_silent_reuse (d : dsref) orc it orc1 :
  d_repeat R d = false ->
  new_iter d orc = Ok (it, orc1) ->
  Permutation (i_rest R it) (d_data R d) /\
  (d_mode R d = Linear -> i_rest R it = d_data R d) /\
  (exists it', draw_seq (length (d_data R d)) it orc1 = Ok (i_rest R it, it', orc1) /\
     forall j, exists e, is_dge e /\ draw_seq (S j) it' orc1 = Err e) /\
  forall j, exists e, is_dge e /\ draw_seq (length (d_data R d) + S j) it orc1 = Err e.
Proof.
  intros Hrp Hnew.
  destruct (new_iter_inv _ _ _ _ Hnew) as (rest & -> & Hp & Hlin). rewrite Hrp. cbn [i_rest].
  assert (Hex : forall j, exists e, is_dge e /\ draw_seq (S j) (mkIter R d false []) orc1 = Err e).
  { intros j. destruct (field_draw_dry d orc1) as (e & He & Hd). exists e. split; [exact He|].
    cbn [Datasets.draw_seq]. rewrite Hd. reflexivity. }
  assert (Hn : draw_seq (length (d_data R d)) (mkIter R d false rest) orc1
               = Ok (rest, mkIter R d false [], orc1)).
  { rewrite <- (Permutation_length Hp). apply draw_seq_pass. }
  split; [exact Hp|]. split; [intros Hm; apply Hlin, Hm|]. split; [eauto|].
  intros j. destruct (Hex j) as (e & He & Hj). exists e. split; [exact He|].
  rewrite draw_seq_add, Hn. cbn [bind]. rewrite Hj. reflexivity.
Qed.

Theorem empty_dataset_error (d : dsref) orc :
  d_data R d = [] ->
  exists it, new_iter d orc = Ok (it, orc) /\ exists e, is_dge e /\ field_draw it orc = Err e.
Proof.
  intros Hd.
  assert (Hs : forall o, start d o = Ok ([], o)).
  { intros o. unfold Datasets.start, Datasets.shuffle. rewrite Hd. destruct (d_mode R d); reflexivity. }
  exists (mkIter R d (d_repeat R d) []). unfold Datasets.new_iter. rewrite Hs. split; [reflexivity|].
  destruct (d_repeat R d); [exact (field_draw_restart_dry d orc orc (Hs orc))|apply field_draw_dry].
Qed.

(* why each_loop may run over i_rest: zip(iterator, count()) over an iterator whose repeat flag
   is off is the rest of its pass *)
Lemma zip_drain_norepeat : forall (rest : list R) (d : dsref) orc fuel,
  (length rest < fuel)%nat ->
  zip_drain R fuel (mkIter R d false rest) orc = Ok (rest, orc).
Proof.
  induction rest as [|x r IH]; intros d orc [|f] Hf; cbn [length] in Hf; try lia;
    cbn [zip_drain]; unfold iter_next; cbn [i_rest i_repeat i_ds]; [reflexivity|].
  rewrite IH by lia. reflexivity.
Qed.

Notation tmpl := (tmpl R).
Notation tmpls := (tmpls R).
Notation row := (row R C).
Notation st := (st R C).
Notation gen_rows := (gen_rows R C col).
Notation gen_list := (gen_list R C col).
Notation project := (project R C col).
Notation run_recipe := (run_recipe R C col).
Notation run_update := (run_update R C col).
Notation rok := (@ROk R C _).
Notation rerr := (@RErr R C _).

(* _generate_row, as a function of the template's parts *)
Definition one_row tid (sites : list (nat * dsref)) pass (nested friends : tmpls)
           (rc : bool) (fe : option R) (i : Z) (s : st) : res R C unit :=
  match draw_sites R C rc sites s with
  | RErr _ _ _ e o => rerr e o
  | ROk _ _ _ cs s1 =>
    match gen_list nested rc s1 with
    | RErr _ _ _ e o => rerr e o
    | ROk _ _ _ _ s2 =>
      match project fe pass with
      | Err e => rerr e (s_out R C s2)
      | Ok pv => gen_list friends rc (emit R C (mkRow tid fe i cs pv) s2)
      end
    end
  end.

(* gen_rows and gen_list are one mutual fixpoint, which cbn does not fold back: their equations *)
Lemma gen_rows_eq tid lp sites pass nested friends rc (s : st) :
  gen_rows (Tmpl tid lp sites pass nested friends) rc s =
  match lp with
  | LDefault => count_loop R C (one_row tid sites pass nested friends rc None) 1 0 s
  | LCount m => count_loop R C (one_row tid sites pass nested friends rc None) m 0 s
  | LForEach d =>
    match new_iter d (s_orc R C s) with
    | Err e => rerr e (s_out R C s)
    | Ok (it, orc1) =>
      each_loop R C (fun x => one_row tid sites pass nested friends rc (Some x)) (i_rest R it) 0
                (mkSt R C (s_sites R C s) orc1 (s_out R C s))
    end
  end.
Proof.
  destruct lp as [|m|d]; try reflexivity.
  cbn [Datasets.gen_rows]. unfold Datasets.memo_get.
  destruct (new_iter d (s_orc R C s)) as [[it o]|e]; reflexivity.
Qed.

Lemma gen_list_cons t r rc (s : st) :
  gen_list (TCons t r) rc s =
  match gen_rows t rc s with
  | ROk _ _ _ _ s1 => gen_list r rc s1
  | RErr _ _ _ e o => rerr e o
  end.
Proof.
  change (gen_list (TCons t r) rc s)
    with (match gen_rows t rc s with ROk _ _ _ _ s1 => gen_list r rc s1 | e => e end).
  destruct (gen_rows t rc s); reflexivity.
Qed.

Fixpoint fe_rows (tid : nat) (p : R -> list C) (recs : list R) (i : Z) : list row :=
  match recs with
  | [] => []
  | x :: r => mkRow tid (Some x) i [] (p x) :: fe_rows tid p r (i + 1)
  end.

Lemma fe_rows_length tid p recs i : length (fe_rows tid p recs i) = length recs.
Proof. revert i; induction recs; intros; cbn [fe_rows length]; auto. Qed.

Lemma fe_rows_nth tid p recs : forall i k x,
  nth_error recs k = Some x ->
  nth_error (fe_rows tid p recs i) k = Some (mkRow tid (Some x) (i + Z.of_nat k) [] (p x)).
Proof.
  induction recs as [|y r IH]; intros i [|k] x H; cbn [nth_error fe_rows] in *; try discriminate.
  - injection H as ->. rewrite Z.add_0_r. reflexivity.
  - rewrite (IH _ _ _ H). do 2 f_equal. lia.
Qed.

Lemma each_loop_emit tid (p : R -> list C) (body : R -> Z -> st -> res R C unit) :
  forall (recs : list R) i sites orc out,
  (forall x i s, In x recs -> body x i s = rok tt (emit R C (mkRow tid (Some x) i [] (p x)) s)) ->
  each_loop R C body recs i (mkSt R C sites orc out)
  = rok tt (mkSt R C sites orc (out ++ fe_rows tid p recs i)).
Proof.
  induction recs as [|x r IH]; intros i sites orc out Hb; cbn [Datasets.each_loop fe_rows].
  - rewrite app_nil_r. reflexivity.
  - rewrite Hb by (left; reflexivity).
    unfold Datasets.emit. cbn [s_sites s_orc s_out].
    rewrite IH by (intros y j s Hy; apply Hb; right; exact Hy).
    rewrite <- app_assoc. reflexivity.
Qed.

Theorem for_each_exact tid (d : dsref) pass (p : R -> list C) rc sites orc out it orc1 :
  new_iter d orc = Ok (it, orc1) ->
  (forall x, In x (d_data R d) -> project (Some x) pass = Ok (p x)) ->
  gen_rows (Tmpl tid (LForEach d) [] pass TNil TNil) rc (mkSt R C sites orc out)
  = rok tt (mkSt R C sites orc1 (out ++ fe_rows tid p (i_rest R it) 0)) /\
  Permutation (i_rest R it) (d_data R d) /\
  (d_mode R d = Linear -> i_rest R it = d_data R d /\ orc1 = orc).
Proof.
  intros Hnew Hp. rewrite gen_rows_eq. cbn [s_orc s_sites s_out]. rewrite Hnew.
  destruct (new_iter_inv _ _ _ _ Hnew) as (rest & -> & Hperm & Hlin). cbn [i_rest].
  split; [|split; assumption].
  apply each_loop_emit. intros x i s Hx. unfold one_row.
  cbn [Datasets.draw_sites Datasets.gen_list].
  rewrite (Hp x) by (eapply Permutation_in; eassumption). reflexivity.
Qed.

Theorem update_exact tid lp (own : list nat) (input : list R) (passthrough : list nat) (p : R -> list C) orc :
  (forall m, lp <> LCount m) ->
  (forall x, In x input -> project (Some x) (own ++ passthrough) = Ok (p x)) ->
  run_update (TCons (Tmpl tid lp [] own TNil TNil) TNil) input passthrough orc
  = (fe_rows tid p input 0, None).
Proof.
  intros Hlp Hp.
  assert (Hrun : run_recipe 1 (TCons (Tmpl tid (LForEach (mkDs input Linear false None)) []
                                           (own ++ passthrough) TNil TNil) TNil) orc
                 = (fe_rows tid p input 0, None)).
  { unfold Datasets.run_recipe. cbn [Datasets.iterations]. rewrite gen_list_cons.
    destruct (for_each_exact tid (mkDs input Linear false None) (own ++ passthrough) p false [] orc []
                _ orc eq_refl Hp) as [-> _]. reflexivity. }
  unfold Datasets.run_update, Datasets.build_update.
  destruct lp as [|m|d]; [exact Hrun|destruct (Hlp m eq_refl)|exact Hrun].
Qed.

Lemma update_rejects_count tid m sites pass nested friends input pt orc :
  run_update (TCons (Tmpl tid (LCount m) sites pass nested friends) TNil) input pt orc
  = ([], Some (DGE "Update templates should have no 'count'")).
Proof. reflexivity. Qed.

(* A Dataset.iterate call evaluated while recalculate_every_time is on: a new iterator per
   evaluation, hence always the first record, nothing stored.  Only a for_each expression is
   evaluated this way (gen_rows never passes recalc = true down from run_recipe); it is what
   every field below a for_each did before ForEachVariableDefinition.evaluate was repaired
   (KNOWN_FINDINGS: Dataset.iterate/shuffle below a for_each). *)
Lemma site_draw_recalc_linear sid (x : R) (r : list R) rp nm (s : st) :
  site_draw R C true sid (mkDs (x :: r) Linear rp nm) s = ROk R C R x s.
Proof. destruct s. reflexivity. Qed.

Definition holds {A} (P : st -> Prop) (Q : list row -> Prop) (r : res R C A) : Prop :=
  match r with ROk _ _ _ _ s' => P s' | RErr _ _ _ _ o => Q o end.

Lemma count_loop_inv (P : st -> Prop) (Q : list row -> Prop) body :
  (forall i s, P s -> holds P Q (body i s)) ->
  forall m i s, P s -> holds P Q (count_loop R C body m i s).
Proof.
  intros Hb. induction m as [|m IH]; intros i s Hs; cbn [Datasets.count_loop]; [exact Hs|].
  specialize (Hb i s Hs). destruct (body i s) as [a s1|e o]; [apply IH|]; exact Hb.
Qed.

Lemma each_loop_inv (P : st -> Prop) (Q : list row -> Prop) body :
  (forall x i s, P s -> holds P Q (body x i s)) ->
  forall l i s, P s -> holds P Q (each_loop R C body l i s).
Proof.
  intros Hb. induction l as [|x l IH]; intros i s Hs; cbn [Datasets.each_loop]; [exact Hs|].
  specialize (Hb x i s Hs). destruct (body x i s) as [a s1|e o]; [apply IH|]; exact Hb.
Qed.

(* A template keeps what each of its rows keeps, if the invariant does not look at the oracle and
   still holds of the rows written when the for_each expression fails. *)
Lemma gen_rows_inv (P : st -> Prop) (Q : list row -> Prop) tid lp sites pass nested friends rc :
  (forall s, P s -> Q (s_out R C s)) ->
  (forall s o, P s -> P (mkSt R C (s_sites R C s) o (s_out R C s))) ->
  (forall fe i s, P s -> holds P Q (one_row tid sites pass nested friends rc fe i s)) ->
  forall s, P s -> holds P Q (gen_rows (Tmpl tid lp sites pass nested friends) rc s).
Proof.
  intros HQ Horc Hrow s Hs. rewrite gen_rows_eq. destruct lp as [|m|d].
  - apply (count_loop_inv P Q _ (Hrow None)), Hs.
  - apply (count_loop_inv P Q _ (Hrow None)), Hs.
  - destruct (new_iter d (s_orc R C s)) as [[it o1]|e]; [|exact (HQ s Hs)].
    apply (each_loop_inv P Q _ (fun x => Hrow (Some x))), Horc, Hs.
Qed.

Lemma gen_list_inv (P : st -> Prop) (Q : list row -> Prop) t r rc :
  (forall s, P s -> holds P Q (gen_rows t rc s)) ->
  (forall s, P s -> holds P Q (gen_list r rc s)) ->
  forall s, P s -> holds P Q (gen_list (TCons t r) rc s).
Proof.
  intros Ht Hr s Hs. rewrite gen_list_cons. specialize (Ht s Hs).
  destruct (gen_rows t rc s) as [u s1|e o]; [apply Hr|]; exact Ht.
Qed.

Lemma site_draw_spec rc k d (s : st) :
  match site_draw R C rc k d s with
  | ROk _ _ _ _ s' =>
    s_out R C s' = s_out R C s /\
    (s_sites R C s' = s_sites R C s \/
     exists it, s_sites R C s' = store R (key_of R k d) it (s_sites R C s))
  | RErr _ _ _ _ o => o = s_out R C s
  end.
Proof.
  unfold Datasets.site_draw.
  destruct (memo_get R C rc k d s) as [[[it o1] ko]|e] eqn:Hm; [|reflexivity].
  destruct (field_draw it o1) as [[[x it'] o2]|e]; [|reflexivity].
  cbn [s_out s_sites]. split; [reflexivity|].
  unfold Datasets.memo_get in Hm. destruct rc.
  - destruct (new_iter d (s_orc R C s)) as [[? ?]|]; [injection Hm as _ _ <-; auto|discriminate].
  - destruct (lookup R (key_of R k d) (s_sites R C s));
      [|destruct (new_iter d (s_orc R C s)) as [[? ?]|]; [|discriminate]];
      injection Hm as _ _ <-; eauto.
Qed.

Lemma draw_sites_out rc : forall sites (s : st),
  match draw_sites R C rc sites s with
  | ROk _ _ _ _ s' => s_out R C s' = s_out R C s
  | RErr _ _ _ _ o => o = s_out R C s
  end.
Proof.
  induction sites as [|[k d] sites IH]; intros s; cbn [Datasets.draw_sites]; [reflexivity|].
  pose proof (site_draw_spec rc k d s) as H1.
  destruct (site_draw R C rc k d s) as [x s1|e o]; [|exact H1]. destruct H1 as [H1 _].
  specialize (IH s1). destruct (draw_sites R C rc sites s1) as [cs s2|e o]; congruence.
Qed.

Lemma key_eqb_spec a b : reflect (a = b) (key_eqb a b).
Proof.
  destruct a as [x|f x], b as [y|g y]; cbn [Datasets.key_eqb]; try (constructor; discriminate).
  - destruct (Nat.eqb_spec x y); constructor; congruence.
  - destruct f, g, (Nat.eqb_spec x y); constructor; congruence.
Qed.

Lemma key_eqb_refl a : key_eqb a a = true.
Proof. destruct (key_eqb_spec a a); congruence. Qed.

Lemma key_of_shared s1 (d1 : dsref) s2 (d2 : dsref) :
  key_of R s1 d1 = key_of R s2 d2 <->
  match d_name R d1, d_name R d2 with
  | Some n1, Some n2 => n1 = n2 /\ d_mode R d1 = d_mode R d2
  | None, None => s1 = s2
  | _, _ => False
  end.
Proof.
  unfold Datasets.key_of.
  destruct (d_name R d1) as [n1|], (d_name R d2) as [n2|]; split; intros H;
    try discriminate; try contradiction.
  - injection H as -> ->. auto.
  - destruct H as [-> ->]. reflexivity.
  - injection H as ->. reflexivity.
  - subst. reflexivity.
Qed.

Lemma lookup_store k v l k' :
  lookup R k' (store R k v l) = if key_eqb k k' then Some v else lookup R k' l.
Proof.
  induction l as [|[k1 w] l IH]; cbn [Datasets.store Datasets.lookup]; [reflexivity|].
  destruct (key_eqb_spec k1 k) as [->|Hne]; cbn [Datasets.lookup].
  - destruct (key_eqb k k'); reflexivity.
  - rewrite IH. destruct (key_eqb_spec k1 k') as [->|], (key_eqb_spec k k'); congruence.
Qed.

Scheme tmpl_ind2 := Induction for Datasets.tmpl Sort Prop
  with tmpls_ind2 := Induction for Datasets.tmpls Sort Prop.
Combined Scheme tmpl_mutind from tmpl_ind2, tmpls_ind2.

Section Placement.
Variable sid : key.                (* the state key we follow: an unnamed call site, or a name *)
Variable d0 : dsref.               (* the arguments of every call under that key *)

(* field calls under the key in a recipe; a for_each expression is not one (it never uses the
   remembered state) *)
Fixpoint occ_sites (l : list (nat * dsref)) : nat :=
  match l with
  | [] => O
  | (k, d) :: r => (if key_eqb (key_of R k d) sid then 1 else 0) + occ_sites r
  end.

Fixpoint occ (t : tmpl) : nat :=
  match t with
  | Tmpl _ _ sites _ nested friends => occ_sites sites + occ_list nested + occ_list friends
  end
with occ_list (ts : tmpls) : nat :=
  match ts with
  | TNil => O
  | TCons t r => occ t + occ_list r
  end.

(* where the calls under the key may stand so that the order in which rows are WRITTEN is the order
   in which they consumed: a template that draws under the key in its own fields has no draw
   under the key in its nested objects (a nested object's rows are written before the row that
   contains them, after that row's own fields were evaluated).  Friends, sibling templates,
   several fields of one row, other iterations are all fine.  A key that occurs once (an unnamed
   call site) always satisfies this: occ_le1_nest_ok. *)
Fixpoint nest_ok (t : tmpl) : Prop :=
  match t with
  | Tmpl _ _ sites _ nested friends =>
    (occ_sites sites = O \/ occ_list nested = O) /\ nest_ok_list nested /\ nest_ok_list friends
  end
with nest_ok_list (ts : tmpls) : Prop :=
  match ts with
  | TNil => True
  | TCons t r => nest_ok t /\ nest_ok_list r
  end.

(* every occurrence has the arguments d0 (rc = the inherited recalculate_every_time, which
   nothing in a recipe can turn on for a field any more: false from the root) *)
Fixpoint sites_ok (rc : bool) (l : list (nat * dsref)) : Prop :=
  match l with
  | [] => True
  | (k, d) :: r => (key_of R k d = sid -> d = d0 /\ rc = false) /\ sites_ok rc r
  end.

Fixpoint plain (rc : bool) (t : tmpl) : Prop :=
  match t with
  | Tmpl _ _ sites _ nested friends =>
    sites_ok rc sites /\ plain_list rc nested /\ plain_list rc friends
  end
with plain_list (rc : bool) (ts : tmpls) : Prop :=
  match ts with
  | TNil => True
  | TCons t r => plain rc t /\ plain_list rc r
  end.

(* the records the site has handed out, as visible in the rows *)
Fixpoint vals (l : list (key * R)) : list R :=
  match l with
  | [] => []
  | (k, x) :: r => if key_eqb k sid then x :: vals r else vals r
  end.

Fixpoint trace (rows : list row) : list R :=
  match rows with
  | [] => []
  | r :: rest => vals (r_cons R C r) ++ trace rest
  end.

Lemma trace_snoc a r : trace (a ++ [r]) = trace a ++ vals (r_cons R C r).
Proof.
  induction a as [|r' a IH]; cbn [trace app]; [apply app_nil_r|]. rewrite IH. apply app_assoc.
Qed.

Lemma occ_le1_nest_ok :
  (forall t : tmpl, (occ t <= 1)%nat -> nest_ok t) /\
  (forall ts : tmpls, (occ_list ts <= 1)%nat -> nest_ok_list ts).
Proof.
  apply tmpl_mutind.
  - intros tid lp sites pass nested IHn friends IHf H. cbn [occ] in H. cbn [nest_ok].
    split; [lia|]. split; [apply IHn|apply IHf]; lia.
  - intros _. exact I.
  - intros t IHt r IHr H. cbn [occ_list] in H. split; [apply IHt|apply IHr]; lia.
Qed.

Lemma plain_true_occ :
  (forall t : tmpl, plain true t -> occ t = O) /\
  (forall ts : tmpls, plain_list true ts -> occ_list ts = O).
Proof.
  apply tmpl_mutind.
  - intros tid lp sites pass nested IHn friends IHf (Hs & Hn & Hf).
    cbn [occ]. rewrite (IHn Hn), (IHf Hf), !Nat.add_0_r.
    induction sites as [|[k d] sites IH]; cbn [occ_sites sites_ok] in *; [reflexivity|].
    destruct Hs as [Hk Hs]. rewrite (IH Hs).
    destruct (key_eqb_spec (key_of R k d) sid) as [E|]; [destruct (Hk E); discriminate|reflexivity].
  - reflexivity.
  - intros t IHt r IHr [H1 H2]. cbn [occ_list]. rewrite (IHt H1), (IHr H2). reflexivity.
Qed.

Definition frame_P (lk : option iter) (tr : list R) (s : st) : Prop :=
  lookup R sid (s_sites R C s) = lk /\ trace (s_out R C s) = tr.
Definition frame_Q (tr : list R) (o : list row) : Prop := trace o = tr.

Lemma frame_refl (s : st) : frame_P (lookup R sid (s_sites R C s)) (trace (s_out R C s)) s.
Proof. split; reflexivity. Qed.

Lemma site_draw_frame rc k d lk tr (s : st) :
  key_of R k d <> sid -> frame_P lk tr s ->
  holds (frame_P lk tr) (frame_Q tr) (site_draw R C rc k d s).
Proof.
  intros Hk [Hl Ht]. pose proof (site_draw_spec rc k d s) as H.
  destruct (site_draw R C rc k d s) as [x s1|e o]; cbn [holds]; [|subst o; exact Ht].
  destruct H as [Ho Hsites]. split; [|rewrite Ho; exact Ht].
  destruct Hsites as [->|(it & ->)]; [exact Hl|]. rewrite lookup_store.
  destruct (key_eqb_spec (key_of R k d) sid); [contradiction|exact Hl].
Qed.

Lemma draw_sites_frame rc lk tr : forall sites (s : st),
  occ_sites sites = O -> frame_P lk tr s ->
  match draw_sites R C rc sites s with
  | ROk _ _ _ cs s' => frame_P lk tr s' /\ vals cs = []
  | RErr _ _ _ _ o => frame_Q tr o
  end.
Proof.
  induction sites as [|[k d] sites IH]; intros s Hocc Hs; cbn [Datasets.draw_sites]; [auto|].
  cbn [occ_sites] in Hocc.
  destruct (key_eqb_spec (key_of R k d) sid) as [|Hk]; [discriminate|].
  pose proof (site_draw_frame rc k d lk tr s Hk Hs) as H1.
  destruct (site_draw R C rc k d s) as [x s1|e o]; [|exact H1].
  specialize (IH s1 Hocc H1).
  destruct (draw_sites R C rc sites s1) as [cs s2|e o]; [|exact IH].
  cbn [vals]. destruct (key_eqb_spec (key_of R k d) sid); [contradiction|exact IH].
Qed.

Lemma frame_gen :
  (forall t : tmpl, occ t = O -> forall rc lk tr s, frame_P lk tr s ->
      holds (frame_P lk tr) (frame_Q tr) (gen_rows t rc s)) /\
  (forall ts : tmpls, occ_list ts = O -> forall rc lk tr s, frame_P lk tr s ->
      holds (frame_P lk tr) (frame_Q tr) (gen_list ts rc s)).
Proof.
  apply tmpl_mutind.
  - intros tid lp sites pass nested IHn friends IHf Hocc rc lk tr. cbn [occ] in Hocc.
    apply gen_rows_inv; [intros s Hs; exact (proj2 Hs)|intros s o Hs; exact Hs|].
    intros fe i s Hs. unfold one_row.
    pose proof (draw_sites_frame rc lk tr sites s ltac:(lia) Hs) as H1.
    destruct (draw_sites R C rc sites s) as [cs s1|e o]; [|exact H1]. destruct H1 as [H1 Hv].
    pose proof (IHn ltac:(lia) rc lk tr s1 H1) as H2.
    destruct (gen_list nested rc s1) as [u s2|e o]; [|exact H2]. destruct H2 as [Hl Ht].
    destruct (project fe pass) as [pv|e]; [|exact Ht].
    apply IHf; [lia|]. split; [exact Hl|].
    cbn [Datasets.emit s_out]. rewrite trace_snoc, Ht. cbn [r_cons]. rewrite Hv. apply app_nil_r.
  - intros _ rc lk tr s Hs. exact Hs.
  - intros t IHt r IHr Hocc rc lk tr. cbn [occ_list] in Hocc.
    apply gen_list_inv; [apply IHt|apply IHr]; lia.
Qed.

Section Process.
(* The iterator under the key as a process: [Inv h it] says that it is in state it after having
   handed out the records h.  A draw appends one record without touching the oracle, or fails. *)
Variable Inv : list R -> iter -> Prop.
Hypothesis new_at : forall orc, exists it, new_iter d0 orc = Ok (it, orc) /\ Inv [] it.
Hypothesis step_at : forall h it orc, Inv h it ->
  match field_draw it orc with
  | Ok (x, it', o) => o = orc /\ Inv (h ++ [x]) it'
  | Err _ => True
  end.

Definition GoodOut (o : list row) : Prop := exists it, Inv (trace o) it.

(* pend = records drawn for the row under construction, not yet written *)
Definition InvP (s : st) (pend : list R) : Prop :=
  GoodOut (s_out R C s) /\
  match lookup R sid (s_sites R C s) with
  | Some it => Inv (trace (s_out R C s) ++ pend) it
  | None => trace (s_out R C s) ++ pend = []
  end.

Lemma cached_draw k (s : st) pend :
  key_of R k d0 = sid ->
  InvP s pend ->
  match site_draw R C false k d0 s with
  | ROk _ _ _ x s' => InvP s' (pend ++ [x])
  | RErr _ _ _ _ o => o = s_out R C s
  end.
Proof.
  intros Hkey [Hg He].
  assert (Hit : exists it, memo_get R C false k d0 s = Ok (it, s_orc R C s, Some sid) /\
                           Inv (trace (s_out R C s) ++ pend) it).
  { unfold Datasets.memo_get. rewrite Hkey.
    destruct (lookup R sid (s_sites R C s)) as [it|]; [eauto|].
    destruct (new_at (s_orc R C s)) as (it & -> & Hi). rewrite He. exists it. auto. }
  unfold Datasets.site_draw.
  destruct Hit as (it & -> & Hi). pose proof (step_at _ _ (s_orc R C s) Hi) as Hd.
  destruct (field_draw it (s_orc R C s)) as [[[x it'] o']|e]; [|reflexivity].
  split; cbn [s_out s_sites]; [exact Hg|].
  rewrite lookup_store, key_eqb_refl, app_assoc. apply Hd.
Qed.

Lemma InvP_frame (s s' : st) pend :
  frame_P (lookup R sid (s_sites R C s)) (trace (s_out R C s)) s' -> InvP s pend -> InvP s' pend.
Proof. intros [Hl Ht]. unfold InvP, GoodOut. rewrite Hl, Ht. auto. Qed.

Lemma GoodOut_frame (s : st) pend o :
  frame_Q (trace (s_out R C s)) o -> InvP s pend -> GoodOut o.
Proof. intros Ht [Hg _]. unfold GoodOut. rewrite Ht. exact Hg. Qed.

Lemma InvP_emit (s : st) r :
  InvP s (vals (r_cons R C r)) -> InvP (emit R C r s) [].
Proof.
  intros [_ H]. unfold InvP, GoodOut, Datasets.emit. cbn [s_out s_sites].
  rewrite trace_snoc, app_nil_r. split; [|exact H].
  destruct (lookup R sid (s_sites R C s)) as [it|]; [eauto|].
  rewrite H. destruct (new_at []) as (it & _ & Hi). eauto.
Qed.

Lemma draw_sites_inv rc : forall sites (s : st) pend,
  sites_ok rc sites -> InvP s pend ->
  match draw_sites R C rc sites s with
  | ROk _ _ _ cs s' => InvP s' (pend ++ vals cs)
  | RErr _ _ _ _ o => GoodOut o
  end.
Proof.
  induction sites as [|[k d] sites IH]; intros s pend Hok Hs; cbn [Datasets.draw_sites].
  - cbn [vals]. rewrite app_nil_r. exact Hs.
  - destruct Hok as [Hk Hok].
    destruct (key_eqb_spec (key_of R k d) sid) as [Heq|Hne].
    + destruct (Hk Heq) as [-> ->].
      pose proof (cached_draw k s pend Heq Hs) as Hd.
      destruct (site_draw R C false k d0 s) as [x s1|e o]; [|subst o; exact (proj1 Hs)].
      specialize (IH s1 (pend ++ [x]) Hok Hd).
      destruct (draw_sites R C false sites s1) as [cs s2|e o]; [|exact IH].
      cbn [vals]. rewrite Heq, key_eqb_refl. rewrite <- app_assoc in IH. exact IH.
    + pose proof (site_draw_frame rc k d _ _ s Hne (frame_refl s)) as H1.
      destruct (site_draw R C rc k d s) as [x s1|e o]; [|exact (GoodOut_frame _ _ _ H1 Hs)].
      specialize (IH s1 pend Hok (InvP_frame _ _ _ H1 Hs)).
      destruct (draw_sites R C rc sites s1) as [cs s2|e o]; [|exact IH].
      cbn [vals]. destruct (key_eqb_spec (key_of R k d) sid); [contradiction|exact IH].
Qed.

Lemma placement_gen :
  (forall t : tmpl, nest_ok t -> forall rc, plain rc t -> forall s, InvP s [] ->
      holds (fun s' => InvP s' []) GoodOut (gen_rows t rc s)) /\
  (forall ts : tmpls, nest_ok_list ts -> forall rc, plain_list rc ts -> forall s, InvP s [] ->
      holds (fun s' => InvP s' []) GoodOut (gen_list ts rc s)).
Proof.
  apply tmpl_mutind.
  - intros tid lp sites pass nested IHn friends IHf (Hor & Hnn & Hnf) rc (Hso & Hpn & Hpf).
    apply gen_rows_inv; [intros s Hs; exact (proj1 Hs)|intros s o Hs; exact Hs|].
    intros fe i s Hs. unfold one_row.
    pose proof (draw_sites_inv rc sites s [] Hso Hs) as H1.
    pose proof (fun Hz => draw_sites_frame rc _ _ sites s Hz (frame_refl s)) as Hv.
    destruct (draw_sites R C rc sites s) as [cs s1|e o]; [|exact H1]. cbn [app] in H1.
    (* after the nested objects: the row's own draws are still pending *)
    assert (H2 : holds (fun s2 => InvP s2 (vals cs)) GoodOut (gen_list nested rc s1)).
    { destruct (Nat.eq_dec (occ_sites sites) 0) as [Hz|Hnz].
      - (* no draw under the key among this template's fields: go into the children *)
        rewrite (proj2 (Hv Hz)) in *. exact (IHn Hnn rc Hpn s1 H1).
      - (* this template draws under the key: its nested objects do not touch it *)
        destruct Hor as [Hz|Hn0]; [contradiction|].
        pose proof (proj2 frame_gen nested Hn0 rc _ _ s1 (frame_refl s1)) as H2.
        destruct (gen_list nested rc s1) as [u s2|e o];
          [exact (InvP_frame _ _ _ H2 H1)|exact (GoodOut_frame _ _ _ H2 H1)]. }
    destruct (gen_list nested rc s1) as [u s2|e o]; [|exact H2]. cbn [holds] in H2.
    destruct (project fe pass) as [pv|e]; [|exact (proj1 H2)].
    apply (IHf Hnf rc Hpf), InvP_emit, H2.
  - intros _ rc _ s Hs. exact Hs.
  - intros t IHt r IHr [Ho1 Ho2] rc [Hp1 Hp2].
    apply gen_list_inv; [apply IHt|apply IHr]; assumption.
Qed.

Theorem placement_general iters ts orc rows e :
  nest_ok_list ts -> plain_list false ts ->
  run_recipe iters ts orc = (rows, e) ->
  exists it, Inv (trace rows) it.
Proof.
  intros Hocc Hpl Hrun. unfold Datasets.run_recipe in Hrun.
  assert (H : forall k s, InvP s [] ->
            holds (fun s' => InvP s' []) GoodOut (iterations R C col k ts s)).
  { induction k as [|k IH]; intros s Hs; cbn [Datasets.iterations]; [exact Hs|].
    pose proof (proj2 placement_gen ts Hocc false Hpl s Hs) as H1.
    destruct (gen_list ts false s) as [u s1|e1 o]; [apply IH|]; exact H1. }
  destruct (new_at []) as (it0 & _ & H0).
  specialize (H iters (mkSt R C [] orc []) (conj (ex_intro _ it0 H0) eq_refl)).
  destruct (iterations R C col iters ts (mkSt R C [] orc [])) as [u s1|e1 o];
    injection Hrun as <- _; [exact (proj1 H)|exact H].
Qed.

End Process.
End Placement.

Theorem placement_mod_n (sid : key) (data : list R) (nm : option nat) iters ts orc rows e :
  data <> [] ->
  nest_ok_list sid ts -> plain_list sid (mkDs data Linear true nm) false ts ->
  run_recipe iters ts orc = (rows, e) ->
  forall j, (j < length (trace sid rows))%nat ->
    nth_error (trace sid rows) j = nth_error data (j mod length data).
Proof.
  intros Hne Hocc Hpl Hrun. set (d := mkDs data Linear true nm) in *.
  eapply (placement_general sid d (fun h it =>
            (forall j, (j < length h)%nat -> nth_error h j = nth_error data (j mod length data)) /\
            lin_at d (length h) it)) in Hrun as (it & Hg & _); [exact Hg| | |exact Hocc|exact Hpl].
  - intros o. destruct (lin_new d o eq_refl eq_refl) as (it & Hn & Hl).
    exists it. repeat split; [exact Hn| |exact Hl]. intros j Hj. inversion Hj.
  - intros h it o [Hh Hl].
    destruct (lin_draw d _ it o eq_refl Hne Hl) as (x & it' & -> & Hx & Hl').
    rewrite app_length, Nat.add_1_r. repeat split; [|exact Hl'].
    intros j Hj. destruct (Nat.eq_dec j (length h)) as [->|].
    + rewrite nth_error_app2, Nat.sub_diag by lia. symmetry. exact Hx.
    + rewrite nth_error_app1 by lia. apply Hh. lia.
Qed.

Theorem placement_norepeat (sid : key) (data : list R) (nm : option nat) iters ts orc rows e :
  nest_ok_list sid ts -> plain_list sid (mkDs data Linear false nm) false ts ->
  run_recipe iters ts orc = (rows, e) ->
  trace sid rows = firstn (length (trace sid rows)) data /\
  (length (trace sid rows) <= length data)%nat.
Proof.
  intros Hocc Hpl Hrun. set (d := mkDs data Linear false nm) in *.
  eapply (placement_general sid d (fun h it => exists k, (k <= length data)%nat /\
            h = firstn k data /\ it = mkIter R d false (skipn k data)))
    in Hrun as (it & k & Hk & Hg & _); [| | |exact Hocc|exact Hpl].
  - rewrite Hg, firstn_length_le by exact Hk. auto.
  - intros o. exists (mkIter R d false data). split; [reflexivity|]. exists 0%nat. repeat split. lia.
  - intros h it o (k & Hk & -> & ->).
    destruct (Nat.eq_dec k (length data)) as [E|E].
    + rewrite E, skipn_all. destruct (field_draw_dry d o) as (e' & _ & ->). exact I.
    + destruct (nth_split_at data k) as (x & _ & Hs & Hf); [lia|]. rewrite Hs, field_draw_cons.
      split; [reflexivity|]. exists (S k). repeat split; [lia|]. symmetry. exact Hf.
Qed.

Section ForEachGeneral.
Variable tid : nat.

Fixpoint tid_free (t : tmpl) : Prop :=
  match t with
  | Tmpl k _ _ _ nested friends => k <> tid /\ tid_free_list nested /\ tid_free_list friends
  end
with tid_free_list (ts : tmpls) : Prop :=
  match ts with
  | TNil => True
  | TCons t r => tid_free t /\ tid_free_list r
  end.

Definition mine (rows : list row) : list row := filter (fun r => Nat.eqb (r_tid r) tid) rows.
Definition fe_key (r : row) : option R * Z := (r_fe R C r, r_index R C r).
Fixpoint keys (recs : list R) (i : Z) : list (option R * Z) :=
  match recs with
  | [] => []
  | x :: r => (Some x, i) :: keys r (i + 1)
  end.

Lemma keys_length recs i : length (keys recs i) = length recs.
Proof. revert i; induction recs; intros; cbn [keys length]; auto. Qed.

Lemma keys_nth recs : forall i k x,
  nth_error recs k = Some x -> nth_error (keys recs i) k = Some (Some x, i + Z.of_nat k).
Proof.
  induction recs as [|y r IH]; intros i [|k] x H; cbn [nth_error keys] in *; try discriminate.
  - injection H as ->. rewrite Z.add_0_r. reflexivity.
  - rewrite (IH _ _ _ H). do 2 f_equal. lia.
Qed.

Definition prefix {A} (a b : list A) : Prop := exists c, b = a ++ c.

Definition wrote (out0 o : list row) (ks : list (option R * Z)) : Prop :=
  exists ex, o = out0 ++ ex /\ map fe_key (mine ex) = ks.

Lemma wrote_refl out : wrote out out [].
Proof. exists []. rewrite app_nil_r. auto. Qed.

Lemma wrote_snoc out0 o ks (r : row) :
  wrote out0 o ks ->
  wrote out0 (o ++ [r]) (if Nat.eqb (r_tid r) tid then ks ++ [fe_key r] else ks).
Proof.
  intros (ex & -> & <-). exists (ex ++ [r]). split; [symmetry; apply app_assoc|].
  unfold mine. rewrite filter_app, map_app. cbn [filter].
  destruct (Nat.eqb (r_tid r) tid); [reflexivity|apply app_nil_r].
Qed.

Lemma quiet_gen :
  (forall t : tmpl, tid_free t -> forall rc out0 ks s, wrote out0 (s_out R C s) ks ->
      holds (fun s' => wrote out0 (s_out R C s') ks) (fun o => wrote out0 o ks) (gen_rows t rc s)) /\
  (forall ts : tmpls, tid_free_list ts -> forall rc out0 ks s, wrote out0 (s_out R C s) ks ->
      holds (fun s' => wrote out0 (s_out R C s') ks) (fun o => wrote out0 o ks) (gen_list ts rc s)).
Proof.
  apply tmpl_mutind.
  - intros k lp sites pass nested IHn friends IHf (Hk & Hn & Hf) rc out0 ks.
    apply gen_rows_inv; [auto|auto|]. intros fe i s Hs. unfold one_row.
    pose proof (draw_sites_out rc sites s) as H1.
    destruct (draw_sites R C rc sites s) as [cs s1|e o]; [|subst o; exact Hs].
    rewrite <- H1 in Hs. pose proof (IHn Hn rc out0 ks s1 Hs) as H2.
    destruct (gen_list nested rc s1) as [u s2|e o]; [|exact H2]. cbn [holds] in H2.
    destruct (project fe pass) as [pv|e]; [|exact H2].
    apply IHf; [exact Hf|].
    pose proof (wrote_snoc _ _ _ (mkRow k fe i cs pv) H2) as He. cbn [r_tid] in He.
    destruct (Nat.eqb_spec k tid); [contradiction|exact He].
  - intros _ rc out0 ks s Hs. exact Hs.
  - intros t IHt r IHr [H1 H2] rc out0 ks. apply gen_list_inv; [apply IHt|apply IHr]; assumption.
Qed.

(* one row of our template adds the key (fe, i); a failure comes before the row is written (in its
   fields or nested objects) or after it (in its friends) *)
Lemma one_row_mine sites pass nested friends rc fe i out0 ks (s : st) :
  tid_free_list nested -> tid_free_list friends -> wrote out0 (s_out R C s) ks ->
  holds (fun s' => wrote out0 (s_out R C s') (ks ++ [(fe, i)]))
        (fun o => wrote out0 o ks \/ wrote out0 o (ks ++ [(fe, i)]))
        (one_row tid sites pass nested friends rc fe i s).
Proof.
  intros Hn Hf Hs. unfold one_row.
  pose proof (draw_sites_out rc sites s) as H1.
  destruct (draw_sites R C rc sites s) as [cs s1|e o]; [|subst o; left; exact Hs].
  rewrite <- H1 in Hs. pose proof (proj2 quiet_gen nested Hn rc out0 ks s1 Hs) as H2.
  destruct (gen_list nested rc s1) as [u s2|e o]; [|left; exact H2]. cbn [holds] in H2.
  destruct (project fe pass) as [pv|e]; [|left; exact H2].
  pose proof (wrote_snoc _ _ _ (mkRow tid fe i cs pv) H2) as H3.
  cbn [r_tid] in H3. rewrite Nat.eqb_refl in H3.
  pose proof (proj2 quiet_gen friends Hf rc out0 _ (emit R C (mkRow tid fe i cs pv) s2) H3) as H4.
  destruct (gen_list friends rc _) as [u' s4|e o]; [|right]; exact H4.
Qed.

Lemma each_loop_mine sites pass nested friends rc out0 :
  tid_free_list nested -> tid_free_list friends ->
  forall recs i ks (s : st), wrote out0 (s_out R C s) ks ->
  holds (fun s' => wrote out0 (s_out R C s') (ks ++ keys recs i))
        (fun o => exists m, wrote out0 o (ks ++ firstn m (keys recs i)))
        (each_loop R C (fun x => one_row tid sites pass nested friends rc (Some x)) recs i s).
Proof.
  intros Hn Hf. induction recs as [|x r IH]; intros i ks s Hs; cbn [Datasets.each_loop keys holds].
  - rewrite app_nil_r. exact Hs.
  - pose proof (one_row_mine sites pass nested friends rc (Some x) i out0 ks s Hn Hf Hs) as H1.
    destruct (one_row tid sites pass nested friends rc (Some x) i s) as [u s1|e o]; cbn [holds] in H1.
    + specialize (IH (i + 1) _ s1 H1). rewrite <- app_assoc in IH.
      destruct (each_loop R C _ r (i + 1) s1) as [u' s2|e o]; [exact IH|].
      destruct IH as (m & Hw). exists (S m). rewrite <- app_assoc in Hw. exact Hw.
    + destruct H1 as [H1|H1]; [exists 0%nat; rewrite app_nil_r|exists 1%nat]; exact H1.
Qed.

Theorem for_each_general (d : dsref) sites pass nested friends rc (s : st) :
  tid_free_list nested -> tid_free_list friends ->
  match gen_rows (Tmpl tid (LForEach d) sites pass nested friends) rc s with
  | ROk _ _ _ _ s' =>
    exists it orc1 ex, new_iter d (s_orc R C s) = Ok (it, orc1) /\
      s_out R C s' = s_out R C s ++ ex /\ map fe_key (mine ex) = keys (i_rest R it) 0
  | RErr _ _ _ _ o =>
    (exists e, new_iter d (s_orc R C s) = Err e /\ o = s_out R C s) \/
    exists it orc1 ex, new_iter d (s_orc R C s) = Ok (it, orc1) /\
      o = s_out R C s ++ ex /\ prefix (map fe_key (mine ex)) (keys (i_rest R it) 0)
  end.
Proof.
  intros Hn Hf. rewrite gen_rows_eq.
  destruct (new_iter d (s_orc R C s)) as [[it o1]|e]; [|left; eauto].
  pose proof (each_loop_mine sites pass nested friends rc _ Hn Hf (i_rest R it) 0 []
                (mkSt R C (s_sites R C s) o1 (s_out R C s)) (wrote_refl _)) as H. cbn [app] in H.
  destruct (each_loop R C _ (i_rest R it) 0 _) as [u s1|e o]; cbn [holds] in H.
  - destruct H as (ex & Ho & Hk). exists it, o1, ex. auto.
  - right. destruct H as (m & ex & Ho & Hk). exists it, o1, ex. rewrite Hk.
    repeat split; [exact Ho|]. exists (skipn m (keys (i_rest R it) 0)). symmetry. apply firstn_skipn.
Qed.

End ForEachGeneral.

End Proofs.

(* a character never ends a record (an EOL does, when it leaves the reader in START_RECORD) *)
Lemma csv_run_char s s' acc ch r :
  csv_step s (Some ch) = Ok s' -> csv_run s acc (Some ch :: r) = csv_run s' acc r.
Proof. intros H. cbn [csv_run]. rewrite H. reflexivity. Qed.

(* eolize, one character at a time; pcr is on only right after a CR, which a quote may follow
   where a quoted cell ends in one *)
Lemma eolize_cons pcr mid c r :
  eolize pcr mid (c :: r) =
  (if pcr && negb (c =? LF) then [None] else []) ++
  (if c =? LF then Some c :: None :: eolize false false r
   else if c =? CR then Some c :: eolize true false r
   else Some c :: eolize false true r).
Proof. reflexivity. Qed.

Lemma eolize_quote pcr mid r :
  eolize pcr mid (QUOTE :: r) = (if pcr then [None] else []) ++ Some QUOTE :: eolize false true r.
Proof. destruct pcr; reflexivity. Qed.

Lemma add_char_ok st fs cur c st' :
  Z.of_nat (length cur) < FIELD_LIMIT ->
  add_char (mkRd st fs cur) c st' = Ok (mkRd st' fs (c :: cur)).
Proof.
  intros H. unfold add_char. cbn [rd_field rd_fields]. apply Z.ltb_lt in H. rewrite H. reflexivity.
Qed.

Lemma quoted_eol fs cur acc r :
  csv_run (mkRd InQuoted fs cur) acc (None :: r) = csv_run (mkRd InQuoted fs cur) acc r.
Proof. reflexivity. Qed.

Lemma quoted_pre (b : bool) fs cur acc r :
  csv_run (mkRd InQuoted fs cur) acc ((if b then [None] else []) ++ r)
  = csv_run (mkRd InQuoted fs cur) acc r.
Proof. destruct b; reflexivity. Qed.

Lemma quoted_char fs cur acc c r :
  (c =? QUOTE) = false -> Z.of_nat (length cur) < FIELD_LIMIT ->
  csv_run (mkRd InQuoted fs cur) acc (Some c :: r) = csv_run (mkRd InQuoted fs (c :: cur)) acc r.
Proof.
  intros Hq Hl. apply csv_run_char. cbn [csv_step rd_state]. rewrite Hq. apply add_char_ok, Hl.
Qed.

Lemma quoted_quote fs cur acc r :
  csv_run (mkRd InQuoted fs cur) acc (Some QUOTE :: r) = csv_run (mkRd QuoteInQuoted fs cur) acc r.
Proof. reflexivity. Qed.

Lemma qq_quote fs cur acc r :
  Z.of_nat (length cur) < FIELD_LIMIT ->
  csv_run (mkRd QuoteInQuoted fs cur) acc (Some QUOTE :: r) = csv_run (mkRd InQuoted fs (QUOTE :: cur)) acc r.
Proof. intros Hl. apply csv_run_char. exact (add_char_ok _ _ _ _ _ Hl). Qed.

(* the body of a quoted cell, up to and including the closing quote: every character of the cell
   arrives, line ends inside it included; the line structure of the file plays no role *)
Lemma quoted_body : forall f rest fs cur acc pcr mid,
  Z.of_nat (length cur + length f) <= FIELD_LIMIT ->
  csv_run (mkRd InQuoted fs cur) acc (eolize pcr mid (escape_quotes f ++ QUOTE :: rest))
  = csv_run (mkRd QuoteInQuoted fs (rev f ++ cur)) acc (eolize false true rest).
Proof.
  induction f as [|c f IH]; intros rest fs cur acc pcr mid Hfit; cbn [escape_quotes app rev].
  - rewrite eolize_quote, quoted_pre. apply quoted_quote.
  - cbn [length] in Hfit. rewrite <- app_assoc. cbn [app].
    assert (Hl : Z.of_nat (length cur) < FIELD_LIMIT) by lia.
    assert (Hfit' : Z.of_nat (length (c :: cur) + length f) <= FIELD_LIMIT) by (cbn [length]; lia).
    destruct (c =? QUOTE) eqn:Eq.
    + apply Z.eqb_eq in Eq. subst c. cbn [app].
      rewrite eolize_quote, quoted_pre, quoted_quote, eolize_quote. cbn [app].
      rewrite qq_quote by exact Hl. apply IH, Hfit'.
    + cbn [app]. rewrite eolize_cons, quoted_pre.
      destruct (c =? LF); [|destruct (c =? CR)]; rewrite quoted_char by assumption;
        rewrite ?quoted_eol; apply IH, Hfit'.
Qed.

Lemma plain_char_spec c :
  plain_char c = true -> (c =? COMMA) = false /\ (c =? QUOTE) = false /\ (c =? CR) = false /\ (c =? LF) = false.
Proof.
  unfold plain_char. intros H. apply negb_true_iff in H.
  repeat (apply orb_false_elim in H; destruct H as [H ?]). auto.
Qed.

(* a character of a bare cell, the first one (at the start of a record or after a comma) or a later one *)
Lemma bare_char st fs cur acc mid c r :
  st = StartRecord \/ st = StartField \/ st = InField ->
  plain_char c = true -> Z.of_nat (length cur) < FIELD_LIMIT ->
  csv_run (mkRd st fs cur) acc (eolize false mid (c :: r))
  = csv_run (mkRd InField fs (c :: cur)) acc (eolize false true r).
Proof.
  intros Hst Hp Hl. destruct (plain_char_spec c Hp) as (H0 & H1 & H2 & H3).
  assert (Hnl : is_nl c = false) by (unfold is_nl; rewrite H2, H3; reflexivity).
  rewrite eolize_cons, H2, H3. apply csv_run_char.
  destruct Hst as [->|[->| ->]]; cbn [csv_step start_field rd_state]; rewrite Hnl, ?H1, H0;
    apply add_char_ok, Hl.
Qed.

Lemma bare_body : forall f c rest st fs cur acc mid,
  st = StartRecord \/ st = StartField \/ st = InField ->
  forallb plain_char (c :: f) = true -> Z.of_nat (length cur + length (c :: f)) <= FIELD_LIMIT ->
  csv_run (mkRd st fs cur) acc (eolize false mid (c :: f ++ rest))
  = csv_run (mkRd InField fs (rev (c :: f) ++ cur)) acc (eolize false true rest).
Proof.
  induction f as [|c' f IH]; intros c rest st fs cur acc mid Hst Hp Hfit;
    cbn [forallb] in Hp; apply andb_prop in Hp; destruct Hp as [Hc Hp]; cbn [length] in Hfit;
    rewrite bare_char by first [assumption|lia]; [reflexivity|].
  cbn [app]. rewrite IH by first [exact Hp|cbn [length]; lia|auto].
  cbn [rev]. rewrite <- !app_assoc. reflexivity.
Qed.

(* Where a cell begins the reader is in START_RECORD at the start of a line and in START_FIELD after
   a comma; eolize's flag mid says the same of the text. *)
Lemma fieldstart_quote (mid : bool) fs acc r :
  csv_run (mkRd (if mid then StartField else StartRecord) fs []) acc (Some QUOTE :: r)
  = csv_run (mkRd InQuoted fs []) acc r.
Proof. destruct mid; reflexivity. Qed.

(* the reader right after the text of a cell f (fields fs before it); it holds the characters of
   the cell latest first *)
Inductive after_cell (f : list Z) (fs : list (list Z)) : rd -> Prop :=
| AfterBare cur : rev cur = f -> after_cell f fs (mkRd InField fs cur)
| AfterQuoted cur : rev cur = f -> after_cell f fs (mkRd QuoteInQuoted fs cur)
| AfterEmpty : f = [] -> after_cell f fs (mkRd StartField fs []).

(* An empty bare cell has no text: the reader must know from a comma before it that a record is
   under way (without one, the line would be blank). *)
Lemma read_cell c (mid : bool) fs acc rest :
  cell_ok false c = true -> (write_cell c = [] -> mid = true) ->
  exists s, after_cell (w_text c) fs s /\
    csv_run (mkRd (if mid then StartField else StartRecord) fs []) acc
            (eolize false mid (write_cell c ++ rest))
    = csv_run s acc (eolize false true rest).
Proof.
  intros Hok Hemp. unfold cell_ok in Hok. apply andb_prop in Hok. destruct Hok as [Hlen Hok].
  apply Z.leb_le in Hlen. unfold write_cell in *. destruct c as [f [|]]; cbn [w_text w_quoted] in *.
  - exists (mkRd QuoteInQuoted fs (rev f)). split; [apply AfterQuoted, rev_involutive|].
    cbn [app]. rewrite eolize_quote, <- app_assoc. cbn [app].
    rewrite fieldstart_quote, quoted_body by (assumption || (cbn [length]; lia)).
    rewrite app_nil_r. reflexivity.
  - cbn [orb] in Hok. apply andb_prop in Hok. destruct Hok as [Hp _].
    destruct f as [|c f].
    + rewrite (Hemp eq_refl). exists (mkRd StartField fs []).
      split; [apply AfterEmpty|]; reflexivity.
    + exists (mkRd InField fs (rev (c :: f))). split; [apply AfterBare, rev_involutive|].
      cbn [app]. rewrite bare_body by first [exact Hp|cbn [length]; lia|destruct mid; auto].
      rewrite app_nil_r. reflexivity.
Qed.

(* what comes after a cell: a comma, a line end, or the end of the text.  The three forms of the
   reader take the same steps there, so each case is a computation. *)
Lemma after_cell_next f fs s acc :
  after_cell f fs s ->
  (forall rest, csv_run s acc (eolize false true (COMMA :: rest))
                = csv_run (mkRd StartField (f :: fs) []) acc (eolize false true rest)) /\
  (forall crlf rest, csv_run s acc (eolize false true (write_eol crlf ++ rest))
                     = csv_run rd0 (rev (f :: fs) :: acc) (eolize false false rest)) /\
  csv_run s acc (eolize false true []) = Ok (rev (rev (f :: fs) :: acc)).
Proof. intros [cur <-|cur <-| ->]; repeat split; try intros [|] rest; reflexivity. Qed.

Lemma read_cell_comma c (mid : bool) fs acc rest :
  cell_ok false c = true ->
  csv_run (mkRd (if mid then StartField else StartRecord) fs []) acc
          (eolize false mid (write_cell c ++ COMMA :: rest))
  = csv_run (mkRd StartField (w_text c :: fs) []) acc (eolize false true rest).
Proof.
  intros Hc. destruct (write_cell c) as [|z w] eqn:Ew.
  - (* an empty bare cell: the comma comes at once *)
    assert (w_text c = []) as -> by (unfold write_cell in Ew; destruct (w_quoted c); [discriminate|exact Ew]).
    destruct mid; reflexivity.
  - rewrite <- Ew.
    destruct (read_cell c mid fs acc (COMMA :: rest) Hc) as (s & Ha & ->); [rewrite Ew; discriminate|].
    apply (after_cell_next _ _ _ _ Ha).
Qed.

Lemma write_cells_cons2 c c2 r : write_cells (c :: c2 :: r) = write_cell c ++ COMMA :: write_cells (c2 :: r).
Proof. reflexivity. Qed.

(* K: what the reader does with the fields of the row once term (a terminator, or the end of the
   text) follows the last cell *)
Lemma read_cells : forall cs (mid : bool) fs acc term K,
  cs <> [] -> forallb (cell_ok false) cs = true -> (write_cells cs = [] -> mid = true) ->
  (forall s f fs', after_cell f fs' s -> csv_run s acc (eolize false true term) = K (f :: fs')) ->
  csv_run (mkRd (if mid then StartField else StartRecord) fs []) acc
          (eolize false mid (write_cells cs ++ term))
  = K (rev (map w_text cs) ++ fs).
Proof.
  induction cs as [|c cs IH]; intros mid fs acc term K Hne Hall Hemp HK; [contradiction|].
  cbn [forallb] in Hall. apply andb_prop in Hall. destruct Hall as [Hc Hall].
  destruct cs as [|c2 r].
  - cbn [write_cells map rev app].
    destruct (read_cell c mid fs acc term Hc Hemp) as (s & Ha & ->). apply HK, Ha.
  - rewrite write_cells_cons2, <- app_assoc. cbn [app]. rewrite read_cell_comma by exact Hc.
    rewrite (IH true (w_text c :: fs) acc term K); [|discriminate|exact Hall|auto|exact HK].
    cbn [map rev]. rewrite <- !app_assoc. reflexivity.
Qed.

Lemma cell_ok_alone c : cell_ok true c = true -> cell_ok false c = true /\ write_cell c <> [].
Proof.
  unfold cell_ok, write_cell. destruct c as [f [|]]; cbn [w_text w_quoted orb].
  - intros H. split; [exact H|discriminate].
  - destruct f as [|z f]; cbn [is_blank_text andb negb]; intros H.
    + rewrite !andb_false_r in H. discriminate.
    + split; [exact H|discriminate].
Qed.

Lemma cells_ok_spec cs :
  cs <> [] -> cells_ok cs = true -> forallb (cell_ok false) cs = true /\ write_cells cs <> [].
Proof.
  destruct cs as [|c [|c2 r]]; intros Hne H; [contradiction| |].
  - destruct (cell_ok_alone c H) as [H1 H2]. cbn [forallb write_cells]. rewrite H1. auto.
  - split; [exact H|]. rewrite write_cells_cons2. intros E. apply app_eq_nil in E.
    destruct E; discriminate.
Qed.

Lemma read_row r acc rest :
  row_ok r = true ->
  csv_run rd0 acc (eolize false false (write_cells (w_cells r) ++ write_eol (w_crlf r) ++ rest))
  = csv_run rd0 (row_texts (w_cells r) :: acc) (eolize false false rest).
Proof.
  destruct r as [cs crlf]. unfold row_ok. cbn [w_cells w_crlf]. intros Hok.
  destruct cs as [|c cs].
  - (* a blank line *)
    destruct crlf; reflexivity.
  - destruct (cells_ok_spec (c :: cs) ltac:(discriminate) Hok) as [Hall Hne]. unfold rd0.
    rewrite (read_cells (c :: cs) false [] acc (write_eol crlf ++ rest)
               (fun fields => csv_run rd0 (rev fields :: acc) (eolize false false rest)));
      [|discriminate|exact Hall|intros E; contradiction|].
    + rewrite app_nil_r, rev_involutive. reflexivity.
    + intros s f fs' Ha. apply (after_cell_next _ _ _ _ Ha).
Qed.

Lemma read_rows : forall rows acc tail,
  forallb row_ok rows = true ->
  csv_run rd0 acc (eolize false false (write_rows rows ++ tail))
  = csv_run rd0 (rev (map (fun r => row_texts (w_cells r)) rows) ++ acc) (eolize false false tail).
Proof.
  induction rows as [|r rows IH]; intros acc tail Hok; cbn [write_rows map rev]; [reflexivity|].
  cbn [forallb] in Hok. apply andb_prop in Hok. destruct Hok as [Hr Hrows].
  rewrite <- !app_assoc, read_row, IH by assumption. reflexivity.
Qed.

Lemma strip_bom_file bom body : bom_ok bom body = true ->
  strip_bom ((if bom then [BOMC] else []) ++ body) = body.
Proof.
  unfold bom_ok. destruct bom; cbn [orb app]; [reflexivity|].
  destruct body as [|c r]; [reflexivity|]. cbn [strip_bom]. intros H.
  apply negb_true_iff in H. rewrite H. reflexivity.
Qed.

Theorem csv_roundtrip bom rows last :
  forallb row_ok rows = true ->
  match last with Some cs => cs <> [] /\ cells_ok cs = true | None => True end ->
  bom_ok bom (write_rows rows ++ match last with Some cs => write_cells cs | None => [] end) = true ->
  csv_rows (write_file bom rows last)
  = Ok (map (fun r => row_texts (w_cells r)) rows ++
        match last with Some cs => [row_texts cs] | None => [] end).
Proof.
  intros Hrows Hlast Hbom. unfold csv_rows, write_file.
  rewrite (strip_bom_file _ _ Hbom), read_rows, app_nil_r by assumption.
  destruct last as [cs|].
  - destruct Hlast as [Hne Hok]. destruct (cells_ok_spec cs Hne Hok) as [Hall Hw]. unfold rd0.
    rewrite <- (app_nil_r (write_cells cs)).
    rewrite (read_cells cs false [] _ []
               (fun fields => Ok (rev (rev fields :: rev (map (fun r => row_texts (w_cells r)) rows)))));
      [|exact Hne|exact Hall|intros E; contradiction|intros s f fs' Ha; apply (after_cell_next _ _ _ _ Ha)].
    rewrite app_nil_r, rev_involutive. cbn [rev]. rewrite rev_involutive. reflexivity.
  - cbn [eolize orb csv_run rd0 rd_field rd_state]. rewrite rev_involutive, app_nil_r. reflexivity.
Qed.

Definition pad_row (n : nat) (r : list (list Z)) : rec := map Some r ++ repeat None (n - length r).

(* DictReader over rows none of which is longer than the header: short ones are filled up *)
Lemma dict_records_short n l : Forall (fun r => (length r <= n)%nat) l ->
  all_ok (map (dict_record n) l) = Ok (map (pad_row n) l).
Proof.
  induction 1 as [|r l Hr _ IH]; cbn [map all_ok]; [reflexivity|].
  unfold dict_record at 1. destruct (Nat.ltb_spec n (length r)); [lia|]. rewrite IH. reflexivity.
Qed.

Section ArgsMemoProofs.
Variable R : Type.

Lemma akey_eqb_spec a b : reflect (a = b) (akey_eqb a b).
Proof.
  destruct a as [a1 a2], b as [b1 b2]. unfold akey_eqb. cbn [fst snd].
  destruct (Nat.eqb_spec a1 b1), (Nat.eqb_spec a2 b2); constructor; congruence.
Qed.

Lemma alookup_astore k v l k' :
  alookup R k' (astore R k v l) = if akey_eqb k k' then Some v else alookup R k' l.
Proof.
  induction l as [|[k1 w] l IH]; cbn [astore alookup]; [reflexivity|].
  destruct (akey_eqb_spec k1 k) as [->|Hne]; cbn [alookup].
  - destruct (akey_eqb k k'); reflexivity.
  - rewrite IH. destruct (akey_eqb_spec k1 k') as [->|], (akey_eqb_spec k k'); congruence.
Qed.

Lemma prior_cons k c l :
  prior R k (c :: l) = ((if akey_eqb (c_key R c) k then 1 else 0) + prior R k l)%nat.
Proof. unfold prior. cbn [filter]. destruct (akey_eqb (c_key R c) k); reflexivity. Qed.

Variable dsof : akey -> dsref R.

Definition args_inv (tbl : list (akey * iter R)) (cnt : akey -> nat) : Prop :=
  forall k,
    match alookup R k tbl with
    | None => cnt k = 0%nat
    | Some it => lin_at R (dsof k) (cnt k) it
    end.

Lemma args_run_inv : forall calls tbl cnt orc,
  args_inv tbl cnt ->
  (forall c, In c calls ->
     c_ds R c = dsof (c_key R c) /\
     d_mode R (c_ds R c) = Linear /\ d_repeat R (c_ds R c) = true /\ d_data R (c_ds R c) <> []) ->
  exists xs, args_run R calls tbl orc = (xs, None) /\ length xs = length calls /\
    forall i c, nth_error calls i = Some c ->
      nth_error xs i = nth_error (d_data R (c_ds R c))
                                 ((cnt (c_key R c) + prior R (c_key R c) (firstn i calls))
                                  mod length (d_data R (c_ds R c))).
Proof.
  induction calls as [|c rest IH]; intros tbl cnt orc Hinv Hall.
  - exists []. repeat split. intros [|i] c H; discriminate.
  - destruct (Hall c (or_introl eq_refl)) as (Hds & Hm & Hr & Hne).
    (* the iterator the call gets has handed out cnt (c_key c) records *)
    assert (Hget : exists it,
              (match alookup R (c_key R c) tbl with
               | Some it => Ok (it, orc)
               | None => new_iter R (c_ds R c) orc
               end) = Ok (it, orc) /\ lin_at R (c_ds R c) (cnt (c_key R c)) it).
    { specialize (Hinv (c_key R c)). rewrite <- Hds in Hinv.
      destruct (alookup R (c_key R c) tbl) as [it|]; [eauto|]. rewrite Hinv.
      apply lin_new; assumption. }
    destruct Hget as (it & Hg & Hl).
    destruct (lin_draw R _ _ it orc Hm Hne Hl) as (x & it' & Hd & Hx & Hl').
    destruct (IH (astore R (c_key R c) it' tbl)
                 (fun k' => if akey_eqb (c_key R c) k' then S (cnt k') else cnt k') orc)
      as (xs & Hrun & Hlen & Hnth).
    { intros k'. rewrite alookup_astore.
      destruct (akey_eqb_spec (c_key R c) k') as [<-|]; [rewrite <- Hds; exact Hl'|apply Hinv]. }
    { intros c0 H. apply Hall. right. exact H. }
    exists (x :: xs). split; [cbn [args_run]; rewrite Hg, Hd, Hrun; reflexivity|].
    split; [cbn [length]; congruence|].
    intros [|i] c0 H0; cbn [nth_error firstn] in *.
    + injection H0 as <-. unfold prior. cbn [filter length]. rewrite Nat.add_0_r.
      symmetry. exact Hx.
    + rewrite (Hnth i c0 H0), prior_cons.
      destruct (akey_eqb (c_key R c) (c_key R c0)); do 2 f_equal. apply Nat.add_succ_comm.
Qed.

End ArgsMemoProofs.

Lemma name_eqb_spec (a b : name) : reflect (a = b) (name_eqb a b).
Proof.
  unfold name_eqb. revert b.
  induction a as [|x a IH]; intros [|y b]; cbn [list_eqb]; try (constructor; discriminate);
    [constructor; reflexivity|].
  destruct (Z.eqb_spec x y), (IH b); constructor; congruence.
Qed.

Section CiRecordP.
Variable V : Type.

Notation fkeys := (map (@fst name (name * V))).

Lemma cid_set_fresh (d : cidict V) fk k v :
  ~ In fk (fkeys d) -> cid_set d fk k v = d ++ [(fk, (k, v))].
Proof.
  induction d as [|[fk' kv] r IH]; intros Hn; cbn [cid_set app]; [reflexivity|].
  cbn [map fst In] in Hn. destruct (name_eqb_spec fk' fk); [destruct Hn; auto|].
  rewrite IH; auto.
Qed.

Lemma cid_set_keys_in (d : cidict V) fk k v x :
  In x (fkeys (cid_set d fk k v)) -> x = fk \/ In x (fkeys d).
Proof.
  induction d as [|[fk' kv] r IH]; cbn [cid_set map fst In]; [intros [<-|[]]; auto|].
  destruct (name_eqb fk' fk); cbn [map fst In]; [auto|]. intros [H|H]; [auto|].
  destruct (IH H); auto.
Qed.

Lemma cid_set_keys_nodup (d : cidict V) fk k v :
  NoDup (fkeys d) -> NoDup (fkeys (cid_set d fk k v)).
Proof.
  induction d as [|[fk' kv] r IH]; cbn [cid_set map fst]; intros Hnd.
  - constructor; [intros []|constructor].
  - inversion Hnd as [|? ? Hni Hr]; subst.
    destruct (name_eqb_spec fk' fk); cbn [map fst]; [constructor; assumption|].
    constructor; [|apply IH, Hr].
    intro H. apply cid_set_keys_in in H. destruct H; [congruence|contradiction].
Qed.

Lemma cid_build_keys (l : list (name * (name * V))) (d : cidict V) :
  NoDup (fkeys d) ->
  NoDup (fkeys (cid_build d l)) /\ incl (fkeys (cid_build d l)) (fkeys d ++ map fst l).
Proof.
  revert d. induction l as [|[fk [k v]] r IH]; intros d Hnd; cbn [cid_build map fst].
  - split; [exact Hnd|]. rewrite app_nil_r. apply incl_refl.
  - destruct (IH (cid_set d fk k v) (cid_set_keys_nodup d fk k v Hnd)) as [H1 H2]. split; [exact H1|].
    intros x Hx. apply H2, in_app_or in Hx. rewrite in_app_iff. cbn [In].
    destruct Hx as [Hx|Hx]; [apply cid_set_keys_in in Hx; destruct Hx as [->|Hx]|]; auto.
Qed.

Lemma cid_build_fresh (l : list (name * (name * V))) (d : cidict V) :
  NoDup (map fst l) -> (forall x, In x (map fst l) -> ~ In x (fkeys d)) ->
  cid_build d l = d ++ l.
Proof.
  revert d. induction l as [|[fk [k v]] r IH]; intros d Hnd Hdis; cbn [cid_build].
  - rewrite app_nil_r. reflexivity.
  - cbn [map fst] in Hnd, Hdis. inversion Hnd as [|? ? Hni Hr]; subst.
    rewrite cid_set_fresh by (apply Hdis; left; reflexivity).
    rewrite IH; [rewrite <- app_assoc; reflexivity|exact Hr|].
    intros x Hx Hin. rewrite map_app, in_app_iff in Hin. cbn [map fst In] in Hin.
    destruct Hin as [Hin|[<-|[]]]; [exact (Hdis x (or_intror Hx) Hin)|contradiction].
Qed.

Variable fold : name -> name.

Lemma with_fold_keys (l : list (name * V)) : map fst (with_fold fold l) = map fold (map fst l).
Proof. unfold with_fold. rewrite !map_map. reflexivity. Qed.

Lemma with_fold_items (l : list (name * V)) : cid_items (with_fold fold l) = l.
Proof. unfold cid_items, with_fold. rewrite map_map. apply map_id. Qed.

Lemma with_fold_get (l : list (name * V)) k v k' :
  NoDup (map fold (map fst l)) -> In (k, v) l -> fold k' = fold k ->
  cid_get (with_fold fold l) (fold k') = Some v.
Proof.
  intros Hnd Hin ->. induction l as [|[k0 v0] r IH]; [destruct Hin|].
  cbn [map fst] in Hnd. inversion Hnd as [|? ? Hni Hr]; subst.
  unfold with_fold. cbn [map fst cid_get]. fold (with_fold fold r).
  destruct Hin as [[= -> ->]|Hin].
  - destruct (name_eqb_spec (fold k) (fold k)); [reflexivity|contradiction].
  - destruct (name_eqb_spec (fold k0) (fold k)) as [E|]; [|exact (IH Hr Hin)].
    destruct Hni. rewrite E. apply in_map, (in_map fst _ _ Hin).
Qed.

Lemma record_keys (l : list (name * V)) :
  NoDup (fkeys (record_of fold l)) /\ incl (fkeys (record_of fold l)) (map fold (map fst l)).
Proof.
  destruct (cid_build_keys (with_fold fold l) [] (NoDup_nil _)) as [Hnd Hincl].
  rewrite with_fold_keys in Hincl. exact (conj Hnd Hincl).
Qed.

End CiRecordP.

Section MacrosP.
Variable R : Type.

Lemma shift_sites_sids k (l : list (nat * dsref R)) :
  map fst (shift_sites R k l) = map (Nat.add k) (map fst l).
Proof. unfold shift_sites. rewrite !map_map. reflexivity. Qed.

(* mutual fixpoints again: their equations, by conversion *)
Lemma tmpl_sids_eq tid lp sites pass (nested friends : tmpls R) :
  tmpl_sids R (Tmpl tid lp sites pass nested friends)
  = map fst sites ++ tmpls_sids R nested ++ tmpls_sids R friends.
Proof. reflexivity. Qed.

Lemma tmpls_sids_cons (t : tmpl R) r : tmpls_sids R (TCons t r) = tmpl_sids R t ++ tmpls_sids R r.
Proof. reflexivity. Qed.

Lemma shift_tmpl_eq k tid lp sites pass (nested friends : tmpls R) :
  shift_tmpl R k (Tmpl tid lp sites pass nested friends)
  = Tmpl (k + tid) lp (shift_sites R k sites) pass (shift_tmpls R k nested) (shift_tmpls R k friends).
Proof. reflexivity. Qed.

Lemma shift_tmpls_cons k (t : tmpl R) r :
  shift_tmpls R k (TCons t r) = TCons (shift_tmpl R k t) (shift_tmpls R k r).
Proof. reflexivity. Qed.

Lemma shift_sids k :
  (forall t : tmpl R, tmpl_sids R (shift_tmpl R k t) = map (Nat.add k) (tmpl_sids R t)) /\
  (forall ts : tmpls R, tmpls_sids R (shift_tmpls R k ts) = map (Nat.add k) (tmpls_sids R ts)).
Proof.
  apply (tmpl_mutind R).
  - intros tid lp sites pass nested IHn friends IHf.
    rewrite shift_tmpl_eq, !tmpl_sids_eq, shift_sites_sids, IHn, IHf, !map_app. reflexivity.
  - reflexivity.
  - intros t IHt r IHr. rewrite shift_tmpls_cons, !tmpls_sids_cons, IHt, IHr, map_app. reflexivity.
Qed.

Lemma tapp_sids (a b : tmpls R) : tmpls_sids R (tapp R a b) = tmpls_sids R a ++ tmpls_sids R b.
Proof.
  induction a as [|t r IH]; cbn [tapp]; [reflexivity|]. rewrite !tmpls_sids_cons, IH. apply app_assoc.
Qed.

(* two rows of lists, read row by row or column by column *)
Lemma Permutation_app_interleave {A} (a1 a2 b1 b2 : list A) :
  Permutation ((a1 ++ a2) ++ (b1 ++ b2)) ((a1 ++ b1) ++ (a2 ++ b2)).
Proof. rewrite <- !app_assoc. apply Permutation_app_head, Permutation_app_swap_app. Qed.

Lemma include_macro_sids_perm k (m : macro R) (t : tmpl R) :
  Permutation (tmpl_sids R (include_macro R k m t))
              (map (Nat.add k) (macro_sids R m) ++ tmpl_sids R t).
Proof.
  destruct t as [tid lp sites pass nested friends]. unfold macro_sids, include_macro.
  rewrite !tmpl_sids_eq, !map_app, !tapp_sids, shift_sites_sids, !(proj2 (shift_sids k)).
  eapply perm_trans; [apply Permutation_app_head|]; apply Permutation_app_interleave.
Qed.

Theorem inclusions_own_call_sites (m : macro R) (B i j : nat) :
  (forall s, In s (macro_sids R m) -> (s < B)%nat) -> i <> j ->
  forall s, In s (map (Nat.add (i * B)) (macro_sids R m)) ->
            ~ In s (map (Nat.add (j * B)) (macro_sids R m)).
Proof.
  intros Hb Hij s Hi Hj. apply in_map_iff in Hi. destruct Hi as (a & <- & Hina).
  apply in_map_iff in Hj. destruct Hj as (b & Hb' & Hinb).
  apply Hb in Hina. apply Hb in Hinb. apply Hij. nia.
Qed.

End MacrosP.
