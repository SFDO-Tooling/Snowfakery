(* Proofs about theories/Reject.v (property C20).
   Run time: a path is protected exactly when its leaf or one of its steps has a converting handler
   (protected_path_spec); the wrappers with their text refine that frame model (wrap_step, escape_v_spec).
   Validation: every error satisfies a predicate Q as soon as Q holds of what may legitimately come out
   (validate_safe, validate_graph_safe); "never an internal failure of Snowfakery's own" and "never out of
   fuel" are the two instances.  The alias walk is followed through an invariant of its memo (acheck_inv). *)
From Coq Require Import ZArith List Bool String Ascii Lia.
From SFV Require Import Base Reject.
Import ListNotations.
Open Scope string_scope.
Open Scope list_scope.
Open Scope nat_scope.

Lemma through_EDGE f : through f EDGE = EDGE.
Proof. destruct f; reflexivity. Qed.

Lemma converts_through f e : converts f = true -> through f e = EDGE.
Proof. destruct f; try discriminate; reflexivity. Qed.

(* a DataGenError stays one; anything else becomes one at the first converting handler *)
Lemma fold_through_EDGE fs : forall e,
  e = EDGE \/ existsb converts fs = true -> fold_left (fun e f => through f e) fs e = EDGE.
Proof.
  induction fs as [|f fs IH]; cbn [fold_left existsb]; intros e [->|H]; try easy; apply IH.
  - left. apply through_EDGE.
  - apply orb_prop in H as [H|H]; [left; now apply converts_through|now right].
Qed.

Lemma escape_protected p l e : protected_path p l = true -> escape p l e = EDGE.
Proof. intros H. apply fold_through_EDGE. now right. Qed.

Lemma escape_raw_unprotected p l e n : escape p l e = EPy n -> protected_path p l = false.
Proof.
  intros H. destruct (protected_path p l) eqn:Hp; [|reflexivity].
  rewrite (escape_protected p l e Hp) in H. discriminate.
Qed.

Lemma frames_app p q l : frames (p ++ q) l = frames q l ++ fold_right (fun s acc => acc ++ step_frames s) [] p.
Proof.
  induction p as [|s p IH]; cbn [app frames fold_right].
  - now rewrite app_nil_r.
  - now rewrite IH, app_assoc.
Qed.

Lemma protected_path_spec p l :
  protected_path p l
  = existsb converts (leaf_frames l) || existsb (fun s => existsb converts (step_frames s)) p.
Proof.
  unfold protected_path. induction p as [|s p IH]; cbn [frames existsb]; rewrite existsb_app.
  - reflexivity.
  - rewrite IH, <- orb_assoc. f_equal. apply orb_comm.
Qed.

Lemma escape_below s pre post l e :
  existsb converts (step_frames s) = true -> escape (pre ++ s :: post) l e = EDGE.
Proof.
  intros H. apply escape_protected. rewrite protected_path_spec, existsb_app. cbn [existsb].
  rewrite H. now rewrite !orb_true_r.
Qed.

Lemma escape_leaf p l e : existsb converts (leaf_frames l) = true -> escape p l e = EDGE.
Proof. intros H. apply escape_protected. rewrite protected_path_spec, H. reflexivity. Qed.

(* writing a row, row bookkeeping, evaluating / compiling a formula, calling a function, the for_each
   type check, context creation: wrapped wherever they happen *)
Lemma wrapped_leaf p l e :
  In l [LWrite; LRowSetup; LEval; LCompile; LFunc; LForEachType; LCtxTmpl; LCtxVar] -> escape p l e = EDGE.
Proof. intros H. apply escape_leaf. destruct l; try reflexivity; cbn in H; intuition discriminate. Qed.

(* every path execution can take passes a converting handler: whatever is raised wherever, generate
   answers with a DataGenError *)
Lemma rooted_protected p l : rooted p l = true -> protected_path p l = true.
Proof.
  rewrite protected_path_spec. destruct p as [|s p].
  - destruct l; try discriminate; reflexivity.
  - destruct s; try discriminate; intros _; apply orb_true_r.
Qed.

Lemma escape_rooted p l e : rooted p l = true -> escape p l e = EDGE.
Proof. intros H. apply escape_protected, rooted_protected, H. Qed.

Lemma count_conv_wrapped pre e : escape (pre ++ [STmplCount]) LCountConv e = EDGE.
Proof. apply escape_below. reflexivity. Qed.

Lemma sapp_nil_r (s : string) : (s ++ "")%string = s.
Proof. induction s; cbn; congruence. Qed.

Lemma format_T_func f m :
  py_format T_func [f] [("e", m)] = Ok ("Cannot evaluate function `" ++ f ++ "`:" ++ nl ++ " " ++ m)%string.
Proof. unfold py_format, T_func. simpl. rewrite sapp_nil_r. reflexivity. Qed.

Lemma format_T_field f m :
  py_format T_field [f] [("e", m)] = Ok ("Problem rendering field " ++ f ++ ":" ++ nl ++ " " ++ m)%string.
Proof. unfold py_format, T_field. simpl. rewrite sapp_nil_r. reflexivity. Qed.

Lemma format_T_var f m :
  py_format T_var [f] [("e", m)] = Ok ("Cannot evaluate variable `" ++ f ++ "`:" ++ nl ++ " " ++ m)%string.
Proof. unfold py_format, T_var. simpl. rewrite sapp_nil_r. reflexivity. Qed.

Lemma format_T_parse c d m :
  py_format T_parse (chars (String c d)) [("e", m)] = Ok ("Cannot parse value " ++ String c "")%string.
Proof. reflexivity. Qed.

Lemma format_T_parse_empty m : py_format T_parse (chars "") [("e", m)] = Err (Internal "IndexError").
Proof. reflexivity. Qed.

(* a compile failure needs one of Jinja's delimiters in the definition, so the definition is not empty *)
Definition iframe_possible (f : iframe) : bool :=
  match f with IFDefEHCompile d => nonempty d | _ => true end.

Lemma compile_can_raise_nonempty d : compile_can_raise d = true -> nonempty d = true.
Proof. destruct d; [vm_compute; discriminate | reflexivity]. Qed.

Lemma is_dge_cls e : is_dge e = true -> x_cls e = EDGE.
Proof. unfold is_dge. destruct (x_cls e); [reflexivity|discriminate]. Qed.

Lemma is_dge_false_cls e : is_dge e = false -> exists n, x_cls e = EPy n.
Proof. unfold is_dge. destruct (x_cls e); [discriminate|eauto]. Qed.

(* the handlers that put a text of their own in front of whatever arrives (the others let a DataGenError pass) *)
Definition labels (f : iframe) : bool :=
  match f with IFDefEHFunc _ | IFDefEHCompile _ | IFFieldFactory _ => true | _ => false end.

Lemma nonempty_app_l a b : nonempty a = true -> nonempty (a ++ b)%string = true.
Proof. destruct a; [discriminate|reflexivity]. Qed.
Lemma nonempty_app_r a b : nonempty b = true -> nonempty (a ++ b)%string = true.
Proof. destruct a; cbn; [trivial|reflexivity]. Qed.

(* the line: what a wrapper raises knows its line, so whatever was not a DataGenError at the leaf does when
   it leaves *)
Definition located (e : exnv) : Prop := is_dge e = true -> x_line e = true.

(* One handler, whatever text it is given.  Building the message never fails; the class changes as in the
   frame model; the message is empty only where an exception without text passes or SimpleValue.render
   copies it. *)
Lemma wrap_step f e :
  iframe_possible f = true ->
  exists e', wrap f e = Ok e' /\
    x_cls e' = through (erase f) (x_cls e) /\
    (located e -> located e') /\
    (nonempty (x_msg e) = true \/ labels f = true -> nonempty (x_msg e') = true).
Proof.
  intros Hp. destruct f as [|fn|[|c d]|n|m0|v|d|]; try discriminate Hp;
    cbn [wrap erase through labels]; unfold fix_exception.
  - (* SimpleValue.render copies the message *)
    eexists. repeat split. now intros [H|H].
  - (* the three that format a template with a label of their own *)
    rewrite format_T_func. eexists. repeat split.
  - rewrite format_T_parse. eexists. repeat split.
  - rewrite format_T_field. eexists. repeat split.
  - (* ObjectTemplate.exception_handling and VariableDefinition.execute let a DataGenError pass *)
    destruct (is_dge e) eqn:Hd; eexists.
    + rewrite (is_dge_cls e Hd). repeat split; try easy. now intros [H|H].
    + repeat split. intros _. now apply nonempty_app_r.
  - destruct (is_dge e) eqn:Hd; [|rewrite format_T_var]; eexists.
    + rewrite (is_dge_cls e Hd). repeat split; try easy. now intros [H|H].
    + repeat split.
  - (* _evaluate_count converts three classes only; generate converts nothing *)
    destruct (is_count_conversion_error (x_cls e)); eexists; repeat split; try easy; now intros [H|H].
  - eexists. repeat split; try easy. now intros [H|H].
Qed.

Lemma wrap_or_replace_ok f e e' : wrap f e = Ok e' -> wrap_or_replace f e = e'.
Proof. unfold wrap_or_replace. now intros ->. Qed.

Lemma fold_wrap fs : forall e,
  forallb iframe_possible fs = true ->
  let r := fold_left (fun e f => wrap_or_replace f e) fs e in
  x_cls r = fold_left (fun e f => through f e) (map erase fs) (x_cls e) /\
  (located e -> located r) /\
  (nonempty (x_msg e) = true \/ existsb labels fs = true -> nonempty (x_msg r) = true).
Proof.
  induction fs as [|f fs IH]; intros e Hp; cbn [fold_left map existsb].
  - repeat split; try easy. now intros [H|H].
  - cbn in Hp. apply andb_prop in Hp as [Hf Hfs].
    destruct (wrap_step f e Hf) as (e' & Hw & Hc & Hl & Hm), (IH e' Hfs) as (IHc & IHl & IHm).
    rewrite (wrap_or_replace_ok f e e' Hw), <- Hc. repeat split; [exact IHc|auto|].
    intros H. apply IHm. rewrite orb_true_iff, <- or_assoc in H.
    destruct H as [H|H]; [left; exact (Hm H)|now right].
Qed.

Lemma istep_frames_erase s : map erase (istep_frames s) = step_frames (erase_step s).
Proof. destruct s; reflexivity. Qed.

Lemma ileaf_frames_erase l : map erase (ileaf_frames l) = leaf_frames (erase_leaf l).
Proof. destruct l; reflexivity. Qed.

Lemma iframes_erase p l : map erase (iframes p l) = frames (map erase_step p) (erase_leaf l).
Proof.
  induction p as [|s p IH]; cbn [iframes frames map].
  - now rewrite map_app, ileaf_frames_erase.
  - now rewrite map_app, IH, istep_frames_erase.
Qed.

Lemma istep_frames_possible s : forallb iframe_possible (istep_frames s) = true.
Proof. destruct s; reflexivity. Qed.

Lemma iframes_possible p l : ileaf_possible l = true -> forallb iframe_possible (iframes p l) = true.
Proof.
  intros Hl. induction p as [|s p IH]; cbn [iframes]; rewrite forallb_app.
  - apply andb_true_intro; split; [|reflexivity].
    destruct l; try reflexivity. cbn in *. now rewrite (compile_can_raise_nonempty _ Hl).
  - now rewrite IH, istep_frames_possible.
Qed.

(* The text-carrying model refines the frame model: same class, whatever the text.  Whatever was not a
   DataGenError at the leaf knows its line when it leaves, and the message is not empty once it was, or once
   a labelling handler has been passed. *)
Theorem escape_v_spec p l e :
  ileaf_possible l = true ->
  x_cls (escape_v p l e) = escape (map erase_step p) (erase_leaf l) (x_cls e) /\
  (located e -> located (escape_v p l e)) /\
  (nonempty (x_msg e) = true \/ existsb labels (iframes p l) = true ->
   nonempty (x_msg (escape_v p l e)) = true).
Proof.
  intros Hl. unfold escape, escape_v. rewrite <- iframes_erase. apply fold_wrap, iframes_possible, Hl.
Qed.

(* no handler ever fails while it builds its message *)
Theorem escape_v_no_replacement fs : forall e,
  forallb iframe_possible fs = true ->
  forall f pre post, fs = pre ++ f :: post ->
  exists e', wrap f (fold_left (fun e f => wrap_or_replace f e) pre e) = Ok e'.
Proof.
  intros e Hp f pre post ->. rewrite forallb_app in Hp. apply andb_prop in Hp as [_ Hp].
  cbn in Hp. apply andb_prop in Hp as [Hf _].
  destruct (wrap_step f (fold_left (fun e f => wrap_or_replace f e) pre e) Hf) as (e' & H & _). eauto.
Qed.

Definition safeE {A} (Q : err -> Prop) (r : result A) : Prop := forall e, r = Err e -> Q e.
Implicit Types Q : err -> Prop.

Lemma safeE_ok {A} Q (a : A) : safeE Q (Ok a).
Proof. intros e H; discriminate. Qed.

Lemma safeE_err {A} (Q : err -> Prop) e : Q e -> safeE Q (@Err A e).
Proof. intros H e' [= <-]; exact H. Qed.

Lemma safeE_bind {A B} Q (r : result A) (k : A -> result B) :
  safeE Q r -> (forall a, r = Ok a -> safeE Q (k a)) ->
  safeE Q (match r with Ok a => k a | Err e => Err e end).
Proof.
  intros Hr Hk. destruct r as [a|e].
  - apply Hk. reflexivity.
  - apply safeE_err, Hr. reflexivity.
Qed.

(* a sequence that ends by wrapping its result *)
Lemma safeE_map {A B} Q (r : result A) (g : A -> B) :
  safeE Q r -> safeE Q (match r with Ok a => Ok (g a) | Err e => Err e end).
Proof. intros Hr. apply safeE_bind; [exact Hr|]. intros; apply safeE_ok. Qed.

Lemma safeE_if {A} Q (b : bool) (x y : result A) :
  (b = true -> safeE Q x) -> (b = false -> safeE Q y) -> safeE Q (if b then x else y).
Proof. destruct b; auto. Qed.

Definition post {A} Q (R : A -> Prop) (r : result A) : Prop := safeE Q r /\ forall a, r = Ok a -> R a.

Lemma post_ok {A} Q (R : A -> Prop) a : R a -> post Q R (Ok a).
Proof. intros H. split; [apply safeE_ok|]. now intros a' [= <-]. Qed.

Lemma post_err {A} Q (R : A -> Prop) e : Q e -> post Q R (Err e).
Proof. intros H. split; [now apply safeE_err|discriminate]. Qed.

Lemma safeE_post {A} Q (r : result A) : safeE Q r -> post Q (fun a => r = Ok a) r.
Proof. now split. Qed.

Lemma post_bind {A B} Q (R' : A -> Prop) (R : B -> Prop) (r : result A) (k : A -> result B) :
  post Q R' r -> (forall a, R' a -> post Q R (k a)) ->
  post Q R (match r with Ok a => k a | Err e => Err e end).
Proof.
  intros [Hs Hr] Hk. destruct r as [a|e]; [now apply Hk, Hr|]. apply post_err, Hs. reflexivity.
Qed.

(* one step of a sequence: first the step, then the rest under what is known of the step's result *)
Tactic Notation "sbind" "as" simple_intropattern(a) simple_intropattern(H) :=
  lazymatch goal with |- safeE _ _ => apply safeE_bind | |- post _ _ _ => eapply post_bind end;
  [ | intros a H ].
Tactic Notation "sbind" := sbind as ? ?.

Lemma mapM_post {A B} Q (R : B -> Prop) (f : A -> result B) l :
  (forall x, In x l -> post Q R (f x)) -> post Q (Forall R) (mapM f l).
Proof.
  induction l as [|x l IH]; intros H; cbn [mapM]; [now apply post_ok|].
  sbind as b Hb; [apply H; now left|]. sbind as bs Hbs; [apply IH; intros; apply H; now right|].
  apply post_ok. now constructor.
Qed.

Lemma mapM_safe {A B} Q (f : A -> result B) l : (forall x, In x l -> safeE Q (f x)) -> safeE Q (mapM f l).
Proof. intros H. apply (mapM_post Q (fun _ => True)). intros x Hx. split; [now apply H|trivial]. Qed.

(* the walk descends two levels at once (into the mapping under `for_each`), so its induction is on size *)
Fixpoint size (y : yaml) : nat :=
  match y with
  | YSeq l => S (fold_right (fun x a => size x + a) O l)
  | YMap kv => S (fold_right (fun p a => size (snd p) + a) O kv)
  | _ => 1
  end.

Lemma size_seq {x l N} : In x l -> size (YSeq l) <= N -> size x < N.
Proof.
  cbn [size]. induction l as [|a l IH]; cbn [In fold_right]; [easy|].
  intros [->|H] HN; [lia|]. apply IH; [exact H|lia].
Qed.

Lemma size_map {k v kv N} : In (k, v) kv -> size (YMap kv) <= N -> size v < N.
Proof.
  cbn [size]. induction kv as [|a kv IH]; cbn [In fold_right]; [easy|].
  intros [->|H] HN; [cbn [snd] in HN; lia|]. apply IH; [exact H|lia].
Qed.

Lemma lookup_in k kv v : lookup k kv = Some v -> In (YStr k, v) kv.
Proof.
  induction kv as [|[key v'] kv IH]; cbn [lookup]; [discriminate|].
  destruct key; try (right; now apply IH).
  destruct (String.eqb_spec s k) as [->|_]; [intros [= ->]; now left|right; now apply IH].
Qed.

Lemma size_lookup {k kv v N} : lookup k kv = Some v -> size (YMap kv) <= N -> size v < N.
Proof. intros H. eapply size_map, lookup_in, H. Qed.

Lemma parse_element_safe Q sp kv : Q (DGE "") -> safeE Q (parse_element sp kv).
Proof.
  intros HQ. unfold parse_element, dge.
  destruct (pe_keys sp kv); [destruct (forallb _ _)|]; try apply safeE_ok; apply safeE_err, HQ.
Qed.

Lemma parse_element_mand sp kv u m :
  parse_element sp kv = Ok u -> In m (e_mand sp) -> has_key kv (fst m) = true.
Proof.
  unfold parse_element. destruct (pe_keys sp kv); [|discriminate].
  destruct (forallb _ (e_mand sp)) eqn:Hf; [|discriminate]. intros _.
  rewrite forallb_forall in Hf. apply Hf.
Qed.

Lemma parse_element_ok sp kv u : parse_element sp kv = Ok u -> pe_keys sp kv = true.
Proof. unfold parse_element. now destruct (pe_keys sp kv). Qed.

Lemma spec_typed {sp kv u k v p} :
  parse_element sp kv = Ok u -> lookup k kv = Some v -> expected sp k = Some p -> p v = true.
Proof.
  intros Hpe Hl He. apply parse_element_ok in Hpe. revert Hpe Hl.
  induction kv as [|[key v'] kv IH]; cbn [pe_keys lookup]; [discriminate|].
  destruct key; try discriminate. destruct (String.eqb_spec s k) as [->|_].
  - rewrite He. intros H [= ->]. now apply andb_prop in H.
  - destruct (expected sp s); [|discriminate]. intros H. apply andb_prop in H. now apply IH.
Qed.

Lemma truthy_has_key k kv : truthy_opt (lookup k kv) = true -> has_key kv k = true.
Proof. unfold has_key. now destruct (lookup k kv). Qed.

Lemma lookup_res_map_kv {R} (f : yaml -> yaml -> R) k kv :
  lookup_res k (map_kv f kv) = match lookup k kv with Some v => Some (f (YStr k) v) | None => None end.
Proof.
  induction kv as [|[key v] kv IH]; cbn [map_kv lookup_res lookup]; [reflexivity|].
  destruct key; try exact IH.
  destruct (String.eqb_spec s k) as [->|_]; [reflexivity|exact IH].
Qed.

Lemma memn_true i l : memn i l = true <-> In i l.
Proof.
  unfold memn. rewrite existsb_exists. split.
  - intros [x [Hx He]]. apply Nat.eqb_eq in He. now subst.
  - intros H. exists i. split; [assumption|apply Nat.eqb_refl].
Qed.

Lemma memn_false i l : memn i l = false <-> ~ In i l.
Proof. rewrite <- memn_true. destruct (memn i l); split; congruence. Qed.

Definition settled (h : heap) (fin : list nat) (c : nat) : Prop :=
  exists m, nth_error h c = Some m /\ (is_container m = false \/ In c fin).

(* finished containers in the order they were finished, latest first: the members of each were settled before *)
Fixpoint topo (h : heap) (fin : list nat) : Prop :=
  match fin with
  | [] => True
  | i :: r => (exists n, nth_error h i = Some n /\ forall c, In c (children n) -> settled h r c) /\ topo h r
  end.

Lemma settled_mono h fin fin' c : settled h fin c -> incl fin fin' -> settled h fin' c.
Proof. intros (m & Hm & [H|H]) Hi; exists m; auto. Qed.

Lemma list_sum_cons a l : list_sum (a :: l) = a + list_sum l.
Proof. reflexivity. Qed.

Definition sumkids (h : heap) (l : list nat) : nat := list_sum (map (kids h) l).

Lemma sumkids_cons h i n l : nth_error h i = Some n -> sumkids h (i :: l) = length (children n) + sumkids h l.
Proof. intros H. unfold sumkids, kids at 1. cbn [map]. now rewrite H. Qed.

(* What one invocation (or a run of invocations) does to the state: containers are added to the finished
   ones, none of them an ancestor, and every invocation beyond the budget is paid for by a member slot of
   a container finished meanwhile. *)
Definition extends (h : heap) (anc : list nat) (budget : nat) (st st' : astate) : Prop :=
  incl (a_fin st) (a_fin st') /\
  (forall x, In x (a_fin st') -> In x (a_fin st) \/ ~ In x anc) /\
  a_calls st' + sumkids h (a_fin st) <= a_calls st + budget + sumkids h (a_fin st') /\
  NoDup (a_fin st') /\
  topo h (a_fin st').

Lemma aloop_inv h anc (rec : nat -> astate -> result astate) :
  (forall c st st', rec c st = Ok st' -> NoDup (a_fin st) -> topo h (a_fin st) ->
                    extends h anc 1 st st' /\ settled h (a_fin st') c) ->
  forall cs st st', aloop rec cs st = Ok st' -> NoDup (a_fin st) -> topo h (a_fin st) ->
    extends h anc (length cs) st st' /\ forall c, In c cs -> settled h (a_fin st') c.
Proof.
  intros Hrec. induction cs as [|c cs IH]; intros st st' H Hnd Htp; cbn [aloop] in H.
  - injection H as <-. repeat split; auto using incl_refl; [lia|easy].
  - destruct (rec c st) as [s1|] eqn:Hc; [|discriminate].
    destruct (Hrec _ _ _ Hc Hnd Htp) as [(I1 & A1 & C1 & N1 & T1) S1].
    destruct (IH _ _ H N1 T1) as [(I2 & A2 & C2 & N2 & T2) S2].
    repeat split; try assumption.
    + now apply incl_tran with (a_fin s1).
    + intros x Hx. destruct (A2 x Hx) as [Hx1|Hx1]; [now apply A1|now right].
    + cbn [length]. lia.
    + intros x [->|Hx]; [now apply settled_mono with (a_fin s1)|now apply S2].
Qed.

Lemma acheck_inv h : forall fuel anc i st st',
  acheck h fuel anc i st = Ok st' -> NoDup (a_fin st) -> topo h (a_fin st) ->
  extends h anc 1 st st' /\ settled h (a_fin st') i.
Proof.
  induction fuel as [|f IH]; intros anc i st st' H Hnd Htp; cbn [acheck a_fin] in H; [discriminate|].
  destruct (nth_error h i) as [n|] eqn:Hn; [|discriminate].
  destruct (negb (is_container n) || memn i (a_fin st)) eqn:Hskip.
  - (* a scalar or a finished container: nothing changes *)
    injection H as <-. repeat split; auto using incl_refl; cbn [a_fin a_calls]; [lia|].
    exists n. split; [assumption|]. apply orb_prop in Hskip as [Hl|Hm].
    + left. now destruct (is_container n).
    + right. now apply memn_true.
  - apply orb_false_elim in Hskip as [_ Hnf]. apply memn_false in Hnf.
    destruct (memn i anc) eqn:Hia; [discriminate|]. apply memn_false in Hia.
    destruct (aloop _ (children n) _) as [s1|] eqn:Hl; [|discriminate]. injection H as <-.
    destruct (aloop_inv h (i :: anc) _ (IH (i :: anc)) _ _ _ Hl Hnd Htp) as [(I1 & A1 & C1 & N1 & T1) Hs].
    cbn [a_fin a_calls] in *.
    assert (Hni : ~ In i (a_fin s1)).
    { intros Hin. destruct (A1 i Hin) as [H|H]; [contradiction|]. apply H. now left. }
    repeat split.
    + now apply incl_tl.
    + intros x [<-|Hx]; [now right|]. destruct (A1 x Hx) as [H|H]; [now left|right].
      intros Hxa. apply H. now right.
    + cbn [a_fin a_calls]. rewrite (sumkids_cons _ _ _ _ Hn). lia.
    + now constructor.
    + exists n. now split.
    + exact T1.
    + exists n. split; [assumption|]. right. now left.
Qed.

Lemma list_sum_nodup_incl (F : nat -> nat) : forall l m,
  NoDup l -> incl l m -> list_sum (map F l) <= list_sum (map F m).
Proof.
  induction l as [|x l IH]; intros m Hnd Hin; [cbn; lia|].
  apply NoDup_cons_iff in Hnd as [Hx Hnd].
  destruct (in_split x m (Hin x (or_introl eq_refl))) as (m1 & m2 & ->).
  (* x is met once in l: the rest of l lies in the rest of m *)
  assert (Hl : incl l (m1 ++ m2)).
  { intros y Hy. destruct (in_elt_inv y x m1 m2 (Hin y (or_intror Hy))) as [->|H]; [contradiction|exact H]. }
  specialize (IH _ Hnd Hl). rewrite !map_app, !list_sum_app in *. cbn [map]. rewrite !list_sum_cons. lia.
Qed.

Lemma edges_seq h : edges h = list_sum (map (kids h) (seq 0 (length h))).
Proof.
  unfold edges. induction h as [|n h IH]; [reflexivity|].
  cbn [length seq map]. rewrite <- seq_shift, map_map, !list_sum_cons, IH. reflexivity.
Qed.

Lemma topo_in_heap h fin : topo h fin -> incl fin (seq 0 (length h)).
Proof.
  induction fin as [|x r IH]; intros Ht i Hi; [destruct Hi|].
  destruct Ht as [[n [Hn _]] Hr]. destruct Hi as [<-|Hi]; [|now apply IH].
  apply in_seq. assert (x < length h) by (apply nth_error_Some; congruence). lia.
Qed.

Lemma sumkids_le_edges h fin : NoDup fin -> topo h fin -> sumkids h fin <= edges h.
Proof.
  intros Hnd Ht. rewrite edges_seq. apply list_sum_nodup_incl; [assumption|now apply topo_in_heap].
Qed.

(* each container is expanded once: the finished list has no repetition, and the number of invocations is
   at most one per member slot of the document (plus the one for the root) *)
Theorem alias_walk_linear h root st :
  alias_check h root = Ok st ->
  NoDup (a_fin st) /\ a_calls st <= 1 + edges h.
Proof.
  unfold alias_check. intros H.
  destruct (acheck_inv _ _ _ _ _ _ H (NoDup_nil _) I) as [(_ & _ & C & N & T) _].
  split; [exact N|]. pose proof (sumkids_le_edges h (a_fin st) N T). cbn in C. lia.
Qed.

Lemma mapM_ok {A B} (f : A -> result B) l r :
  mapM f l = Ok r -> Forall2 (fun x b => f x = Ok b) l r.
Proof.
  revert r; induction l as [|x l IH]; cbn [mapM]; intros r H.
  - injection H as <-. constructor.
  - destruct (f x) as [b|] eqn:Hf; [|discriminate].
    destruct (mapM f l) as [bs|] eqn:Hm; [|discriminate]. injection H as <-.
    constructor; [exact Hf|now apply IH].
Qed.

Lemma mapM_all_ok {A B} (f : A -> result B) l :
  (forall x, In x l -> exists y, f x = Ok y) -> exists ys, mapM f l = Ok ys.
Proof.
  induction l as [|x l IH]; intros H; cbn; [eauto|].
  destruct (H x (or_introl eq_refl)) as [y ->].
  destruct IH as [ys ->]; [intros; apply H; now right|]. eauto.
Qed.

Lemma unfold_node h f i n :
  nth_error h i = Some n -> (forall c, In c (children n) -> exists y, unfold h f c = Ok y) ->
  exists y, unfold h (S f) i = Ok y.
Proof.
  intros Hn Hk. cbn [unfold]. rewrite Hn. destruct n as [y|l|kv]; [eauto| |].
  - destruct (mapM_all_ok (unfold h f) l Hk) as [ys ->]. eauto.
  - destruct (mapM_all_ok (fun p => match unfold h f (snd p) with Ok v => Ok (fst p, v) | Err e => Err e end) kv)
      as [ys ->]; [|eauto].
    intros [k c] Hc. cbn [fst snd]. destruct (Hk c) as [y ->]; [|eauto]. apply in_map_iff. now exists (k, c).
Qed.

Lemma unfold_scalar h f i m :
  nth_error h i = Some m -> is_container m = false -> exists y, unfold h (S f) i = Ok y.
Proof. intros Hm Hc. apply (unfold_node h f i m Hm). destruct m; [intros c []|discriminate Hc..]. Qed.

(* a container finished k-th unfolds with fuel k + 1 *)
Lemma unfold_topo h : forall fin, topo h fin -> forall i fuel, settled h fin i -> length fin < fuel ->
  exists y, unfold h fuel i = Ok y.
Proof.
  induction fin as [|x r IH]; intros Ht i fuel (m & Hm & Hs) Hf; (destruct fuel as [|f]; [inversion Hf|]).
  - destruct Hs as [Hs|[]]. exact (unfold_scalar h f i m Hm Hs).
  - destruct Ht as [(n & Hn & Hk) Hr]. cbn [length] in Hf. destruct Hs as [Hs|[<-|Hi]].
    + exact (unfold_scalar h f i m Hm Hs).
    + apply (unfold_node h f x n Hn). intros c Hc. apply (IH Hr); [now apply Hk|lia].
    + apply (IH Hr); [exists m; auto|lia].
Qed.

(* what the walk accepts is a finite tree *)
Theorem alias_walk_accepts_trees h root st :
  alias_check h root = Ok st -> exists doc, unfold h (S (length h)) root = Ok doc.
Proof.
  unfold alias_check. intros H.
  destruct (acheck_inv _ _ _ _ _ _ H (NoDup_nil _) I) as [(_ & _ & _ & N & T) S].
  apply (unfold_topo h (a_fin st)); [exact T|exact S|].
  (* no more finished containers than nodes *)
  apply Nat.lt_succ_r. rewrite <- (seq_length (length h) 0).
  apply NoDup_incl_length; [exact N|apply topo_in_heap, T].
Qed.

(* what the walk rejects does contain itself *)
Definition edge (h : heap) (i c : nat) : Prop := exists n, nth_error h i = Some n /\ In c (children n).
Inductive path (h : heap) : nat -> nat -> Prop :=
| path_step a b : edge h a b -> path h a b
| path_more a b c : path h a b -> edge h b c -> path h a c.

(* the ancestors are the way from the root down to the node at hand, nearest first *)
Fixpoint chain (h : heap) (i : nat) (anc : list nat) : Prop :=
  match anc with [] => True | p :: r => edge h p i /\ chain h p r end.

Lemma chain_path h : forall anc i x, chain h i anc -> In x anc -> path h x i.
Proof.
  induction anc as [|p r IH]; intros i x Hc Hx; [destruct Hx|].
  destruct Hc as [He Hr]. destruct Hx as [<-|Hx]; [now apply path_step|].
  eapply path_more; [apply IH; eassumption|exact He].
Qed.

Lemma aloop_safe (rec : nat -> astate -> result astate) Q cs :
  (forall c st, In c cs -> safeE Q (rec c st)) -> forall st, safeE Q (aloop rec cs st).
Proof.
  induction cs as [|c cs IH]; intros Hrec st; cbn [aloop]; [apply safeE_ok|].
  sbind; [apply Hrec; now left|]. apply IH. intros; apply Hrec; now right.
Qed.

Lemma acheck_dge_cycle h : forall fuel anc i st,
  chain h i anc -> safeE (fun e => e = DGE "" -> exists x, path h x x) (acheck h fuel anc i st).
Proof.
  induction fuel as [|f IH]; intros anc i st Hch; cbn [acheck]; [apply safeE_err; discriminate|].
  destruct (nth_error h i) as [n|] eqn:Hn; [|apply safeE_err; discriminate].
  destruct (negb (is_container n) || memn i _); [apply safeE_ok|].
  destruct (memn i anc) eqn:Hia.
  - apply safeE_err. intros _. exists i. apply memn_true in Hia. now apply (chain_path h anc).
  - apply safeE_map. apply aloop_safe. intros c s Hin. apply IH.
    split; [|assumption]. now exists n.
Qed.

Lemma categorize1_dict y c :
  categorize1 y = Ok c ->
  exists kv, y = YMap kv /\ exists d, In (d, c) collection_rules /\ truthy_opt (lookup d kv) = true.
Proof.
  unfold categorize1. destruct y; try discriminate.
  destruct (filter _ collection_rules) as [|r [|r2 l]] eqn:Hf; try discriminate.
  intros [= <-]. exists kv; split; [reflexivity|].
  assert (Hin : In r (filter (fun r => truthy_opt (lookup (fst r) kv)) collection_rules))
    by (rewrite Hf; now left).
  apply filter_In in Hin as [Hin Ht]. exists (fst r). destruct r. exact (conj Hin Ht).
Qed.

Definition Categorized (cats : list (string * yaml)) : Prop :=
  Forall (fun p => categorize1 (snd p) = Ok (fst p)) cats.

Lemma categorize_spec data cats : categorize data = Ok cats -> map snd cats = data /\ Categorized cats.
Proof.
  revert cats; induction data as [|y data IH]; cbn [categorize]; intros cats H.
  - injection H as <-. split; [reflexivity|constructor].
  - destruct (categorize1 y) as [c|] eqn:Hc; [|discriminate].
    destruct (categorize data) as [cs|] eqn:Hcs; [|discriminate]. injection H as <-.
    destruct (IH cs eq_refl) as [Hm Hf]. split; [cbn; now rewrite Hm|now constructor].
Qed.

Lemma of_category_in c cats y : Categorized cats -> In y (of_category c cats) -> categorize1 y = Ok c.
Proof.
  intros Hf Hin. apply in_map_iff in Hin as ([c' y'] & <- & Hin).
  apply filter_In in Hin as [Hin Hc]. apply String.eqb_eq in Hc as <-.
  exact (proj1 (Forall_forall _ _) Hf _ Hin).
Qed.

(* every category but the statements is named after the key that declares it *)
Lemma collection_rules_key d c : In (d, c) collection_rules -> c = "statement" \/ d = c.
Proof.
  intros H.
  apply (proj1 (forallb_forall (fun r => String.eqb (snd r) "statement" || String.eqb (fst r) (snd r))
                               collection_rules) eq_refl) in H.
  apply orb_prop in H as [H|H]; apply String.eqb_eq in H; auto.
Qed.

(* every kind of element but the statements is declared by the key its category is named after, and
   that key is present: obj[key] succeeds *)
Lemma getitem_category c cats site y :
  Categorized cats -> c <> "statement" -> In y (of_category c cats) ->
  exists kv v, y = YMap kv /\ lookup c kv = Some v /\ py_getitem site y c = Ok v.
Proof.
  intros Hf Hc Hin. destruct (categorize1_dict y c (of_category_in _ _ _ Hf Hin)) as (kv & -> & d & Hd & Ht).
  destruct (collection_rules_key d c Hd) as [->| ->]; [contradiction|].
  clear Hd. cbn [py_getitem]. destruct (lookup c kv) as [v|] eqn:Hl; [exists kv, v; auto|discriminate Ht].
Qed.

Lemma find_file_crash {k l s} :
  find_file k l = Some (FBad (LExc s)) -> In s (env_crashes_files l).
Proof.
  induction l as [|[k' e] l IH]; cbn [find_file env_crashes_files]; [discriminate|].
  destruct (String.eqb (fst k') (fst k) && String.eqb (snd k') (snd k)).
  - intros [= ->]. now left.
  - intros H. specialize (IH H). destruct e as [| |[]|]; try exact IH. now right.
Qed.

Lemma assoc_crash {k l s} :
  assoc k l = Some (PCrash s) -> In s (env_crashes_plugins l).
Proof.
  induction l as [|[k' e] l IH]; cbn [assoc env_crashes_plugins]; [discriminate|].
  destruct (String.eqb k' k).
  - intros [= ->]. now left.
  - intros H. specialize (IH H). destruct e; try exact IH. now right.
Qed.

(* the keys of the documents the environment can hand in *)
Fixpoint doc_keys (l : list ((string * string) * fentry)) : list string :=
  match l with
  | [] => []
  | (_, FDoc k _) :: r => k :: doc_keys r
  | _ :: r => doc_keys r
  end.

Lemma find_file_doc_key {k l k' d} : find_file k l = Some (FDoc k' d) -> In k' (doc_keys l).
Proof.
  induction l as [|[kk e] l IH]; cbn [find_file doc_keys]; [discriminate|].
  destruct (String.eqb (fst kk) (fst k) && String.eqb (snd kk) (snd k)).
  - intros [= ->]. now left.
  - intros H. specialize (IH H). destruct e; try exact IH. now right.
Qed.

Lemma doc_keys_length l : length (doc_keys l) <= length l.
Proof. induction l as [|[k e] l IH]; cbn [doc_keys length]; [lia|]. destruct e; cbn [length]; lia. Qed.

Fixpoint macro_names (M : menv) : list string :=
  match M with
  | [] => []
  | (YStr s, _) :: r => s :: macro_names r
  | _ :: r => macro_names r
  end.

Lemma lookup_macro_in name M : lookup_macro name M <> None -> In name (macro_names M).
Proof.
  induction M as [|[k b] M IH]; cbn [lookup_macro macro_names]; [congruence|].
  destruct (lookup_macro name M) eqn:Hl.
  - intros _. assert (In name (macro_names M)) by (apply IH; discriminate).
    destruct k; try assumption. now right.
  - destruct k; try congruence. destruct (String.eqb_spec s name) as [->|]; [now left|congruence].
Qed.

Lemma macro_names_length M : length (macro_names M) <= length M.
Proof. induction M as [|[k b] M IH]; cbn [macro_names length]; [lia|]. destruct k; cbn [length]; lia. Qed.

Lemma mem_false_not_in k l : mem k l = false -> ~ In k l.
Proof.
  unfold mem. intros H Hin. rewrite (proj2 (existsb_exists _ _)) in H; [discriminate|].
  exists k. split; [exact Hin|apply String.eqb_refl].
Qed.

(* The static phase under an error predicate Q.  Every error of the walk satisfies Q as soon as a
   DataGenError does and macro inclusion is safe: none of the checked primitives fires, because
   parse_element has checked the type of what they are applied to. *)
Section Safe.
  Variable Q : err -> Prop.
  Hypothesis Qdge : Q (DGE "").

  Lemma dge_safe {A} : safeE Q (@dge A).
  Proof. apply safeE_err, Qdge. Qed.

  Lemma coerce_safe k : safeE Q (coerce_to_string k).
  Proof. destruct k; cbn [coerce_to_string]; try apply safeE_ok; apply dge_safe. Qed.

  Lemma each_safe f l : (forall x, In x l -> safeE Q (f x)) -> safeE Q (each f l).
  Proof.
    induction l as [|x l IH]; intros H; cbn [each]; [apply safeE_ok|].
    sbind; [apply H; now left|].
    sbind; [apply IH; intros; apply H; now right|]. apply safeE_ok.
  Qed.

  Lemma each_kv_safe chk f kv :
    (forall n, safeE Q (chk n)) -> (forall k v, In (k, v) kv -> safeE Q (f v)) ->
    safeE Q (each_kv chk f kv).
  Proof.
    intros Hc. induction kv as [|[k v] kv IH]; intros H; cbn [each_kv]; [apply safeE_ok|].
    sbind; [apply coerce_safe|]. sbind; [apply Hc|].
    sbind; [eapply H; now left|].
    sbind; [apply IH; intros; eapply H; right; eassumption|]. apply safeE_ok.
  Qed.

  Lemma each_inc_safe inc names : (forall nm, safeE Q (inc nm)) -> safeE Q (each_inc inc names).
  Proof.
    intros Hinc. induction names as [|n r IH]; cbn [each_inc]; [apply safeE_ok|].
    sbind; [apply Hinc|]. sbind; [apply IH|]. apply safeE_ok.
  Qed.

  Lemma field_name_check_safe n : safeE Q (field_name_check n).
  Proof. unfold field_name_check. destruct (nonempty n); [apply safeE_ok|apply dge_safe]. Qed.

  Lemma py_attr_safe site kv k d : (d = false -> has_key kv k = true) -> safeE Q (py_attr site kv k d).
  Proof.
    unfold py_attr, has_key. destruct (lookup k kv); [intros; apply safeE_ok|].
    destruct d; [intros; apply safeE_ok|]. intros H. discriminate (H eq_refl).
  Qed.

  (* what an accepted element yields under a key: a value of the declared type, or None for a default *)
  Lemma py_attr_typed {sp kv u site k d v p} :
    parse_element sp kv = Ok u -> py_attr site kv k d = Ok v -> expected sp k = Some p ->
    p v = true \/ v = YNull.
  Proof.
    intros Hpe Hv He. revert Hv. unfold py_attr. destruct (lookup k kv) as [v'|] eqn:Hl.
    - intros [= <-]. left. exact (spec_typed Hpe Hl He).
    - destruct d; [intros [= <-]; now right|discriminate].
  Qed.

  Lemma split_include_safe {sp kv u site} :
    parse_element sp kv = Ok u -> expected sp "include" = Some is_str ->
    safeE Q (py_split_include site (lookup "include" kv)).
  Proof.
    intros Hpe He. unfold py_split_include. destruct (lookup "include" kv) as [v|] eqn:Hl; [|apply safeE_ok].
    pose proof (spec_typed Hpe Hl He) as Hs. destruct v; try discriminate Hs. apply safeE_ok.
  Qed.

  Lemma check_identifier_safe v : is_str v = true \/ v = YNull -> safeE Q (check_identifier v).
  Proof.
    unfold check_identifier. intros [->| ->]; [rewrite andb_false_r|]; apply safeE_ok.
  Qed.

  Section Walk.
  Variable inc : string -> result (list rrv).
  Hypothesis Hinc : forall nm, safeE Q (inc nm).

  (* the functions of the walk, over a recursive call that is safe, for a field and for a nested statement,
     on everything smaller than N *)
  Section Rec.
    Variable rec : mode -> yaml -> result out.
    Variable N : nat.
    Hypothesis Hrec : forall y, size y < N -> safeE Q (rec MField y) /\ safeE Q (rec (MStmt false) y).

    Lemma kwargs_safe chk kv :
      (forall n, safeE Q (chk n)) -> size (YMap kv) <= N -> safeE Q (each_kv chk (rec MField) kv).
    Proof.
      intros Hc Hs. apply each_kv_safe; [exact Hc|]. intros k v Hin.
      apply Hrec, (size_map Hin Hs).
    Qed.

    Lemma sv_args_safe a : size a < N -> safeE Q (sv_args rec a).
    Proof.
      intros Hs. apply Nat.lt_le_incl in Hs as Hs'.
      destruct a; cbn [sv_args]; apply safeE_map; try apply Hrec, Hs.
      - apply each_safe. intros x Hin. apply Hrec, (size_seq Hin Hs').
      - apply kwargs_safe; [intros; apply safeE_ok|exact Hs'].
    Qed.

    Lemma psv_safe kv : size (YMap kv) <= N -> safeE Q (psv rec kv).
    Proof.
      intros Hs. destruct kv as [|[fn a] rest]; cbn [psv]; [apply dge_safe|].
      sbind; [apply coerce_safe|]. sbind; [|apply safeE_ok].
      destruct rest as [|p rest].
      - apply sv_args_safe. exact (size_map (kv := [(fn, a)]) (or_introl eq_refl) Hs).
      - apply safeE_map. apply kwargs_safe; [intros; apply safeE_ok|].
        cbn [size fold_right] in *. lia.
    Qed.

    Lemma parse_fields_safe v :
      size v < N -> is_dict v = true \/ v = YNull -> safeE Q (parse_fields rec v).
    Proof.
      intros Hs [Hd| ->]; [|apply safeE_ok]. destruct v; try discriminate Hd.
      unfold parse_fields. destruct (truthy (YMap kv)); [|apply safeE_ok].
      apply safeE_map. apply kwargs_safe; [apply field_name_check_safe|apply Nat.lt_le_incl, Hs].
    Qed.

    Lemma parse_friends_safe v :
      size v < N -> is_list v = true \/ v = YNull -> safeE Q (parse_friends rec v).
    Proof.
      intros Hs [Hd| ->]; [|apply safeE_ok]. destruct v; try discriminate Hd.
      unfold parse_friends. destruct (truthy (YSeq l)); [|apply safeE_ok].
      apply safeE_map. apply each_safe. intros x Hin.
      apply Hrec, (size_seq Hin (Nat.lt_le_incl _ _ Hs)).
    Qed.

    (* the `value:` of a var / for_each element, parsed where it stands *)
    Lemma value_res_safe kv :
      size (YMap kv) <= N ->
      safeE Q (match lookup_res "value" (map_kv (value_val rec) kv) with Some r => r | None => Ok [] end).
    Proof.
      intros Hs. rewrite lookup_res_map_kv. destruct (lookup "value" kv) as [v|] eqn:Hl; [|apply safeE_ok].
      unfold value_val. cbn [key_is]. rewrite String.eqb_refl.
      apply safeE_map, Hrec, (size_lookup Hl Hs).
    Qed.

    Lemma pfe_safe kv : size (YMap kv) <= N -> safeE Q (pfe rec kv).
    Proof.
      intros Hs. unfold pfe. cbv zeta.
      sbind as u Hpe; [apply parse_element_safe, Qdge|]. sbind; [|apply value_res_safe, Hs].
      (* `var` is a mandatory key of the element *)
      apply py_attr_safe. intros _. exact (parse_element_mand _ _ _ ("var", is_str) Hpe (or_introl eq_refl)).
    Qed.

    Lemma pvd_safe kv :
      size (YMap kv) <= N -> truthy_opt (lookup "var" kv) = true -> safeE Q (pvd rec kv).
    Proof.
      intros Hs Hv. unfold pvd. cbv zeta.
      sbind; [apply parse_element_safe, Qdge|]. sbind; [|apply value_res_safe, Hs].
      apply py_attr_safe. intros _. apply truthy_has_key, Hv.
    Qed.

    (* the contribution of the value under a key of an accepted element: the value is smaller than the
       element and of the type its spec declares *)
    Lemma res_opt_safe sp kv u (f : yaml -> yaml -> result (list rrv)) k p :
      parse_element sp kv = Ok u -> size (YMap kv) <= N -> expected sp k = Some p ->
      (forall v, size v < N -> p v = true -> safeE Q (f (YStr k) v)) ->
      safeE Q (res_opt k (map_kv f kv)).
    Proof.
      intros Hpe Hs He H. unfold res_opt. rewrite lookup_res_map_kv.
      destruct (lookup k kv) as [v|] eqn:Hl; [|apply safeE_ok].
      apply H; [exact (size_lookup Hl Hs)|exact (spec_typed Hpe Hl He)].
    Qed.

    Lemma count_val_safe v : size v < N -> safeE Q (pot_val rec (YStr "count") v).
    Proof.
      intros Hs. cbn. destruct (is_none v); [apply safeE_ok|].
      apply safeE_map, Hrec, Hs.
    Qed.

    Lemma for_each_val_safe v : size v < N -> is_dict v = true -> safeE Q (pot_val rec (YStr "for_each") v).
    Proof.
      intros Hs Hd. destruct v; try discriminate Hd. apply pfe_safe, Nat.lt_le_incl, Hs.
    Qed.

    Lemma pot_safe top kv :
      size (YMap kv) <= N -> truthy_opt (lookup "object" kv) = true -> safeE Q (pot inc rec top kv).
    Proof.
      intros Hs Hobj. unfold pot. cbv zeta.
      (* every step of the sequence carries the rest of it: keep what occurs all over it under a name *)
      set (site := "parse_recipe_yaml.py:parse_object_template"). set (vals := map_kv (pot_val rec) kv).
      sbind as u Hpe; [apply parse_element_safe, Qdge|].
      pose proof (fun k p => res_opt_safe _ _ _ (pot_val rec) k p Hpe Hs) as Hval. fold vals in Hval.
      sbind as just_once _; [apply py_attr_safe; discriminate|].
      sbind. { destruct top, (truthy just_once); cbn; apply safeE_ok || apply dge_safe. }
      sbind as name Hname; [apply py_attr_safe; intros _; apply truthy_has_key, Hobj|].
      sbind; [apply check_identifier_safe; exact (py_attr_typed Hpe Hname eq_refl)|].
      sbind; [exact (split_include_safe Hpe eq_refl)|].
      sbind; [apply each_inc_safe, Hinc|].
      sbind; [apply py_attr_safe; discriminate|].
      sbind; [apply (Hval "fields" is_dict eq_refl); intros; apply parse_fields_safe; auto|].
      sbind; [apply py_attr_safe; discriminate|].
      sbind; [apply (Hval "friends" is_list eq_refl); intros; apply parse_friends_safe; auto|].
      sbind as nick Hnick; [apply py_attr_safe; discriminate|].
      sbind; [apply check_identifier_safe; exact (py_attr_typed Hpe Hnick eq_refl)|].
      sbind; [apply (Hval "count" _ eq_refl); intros; apply count_val_safe; assumption|].
      sbind; [apply (Hval "for_each" _ eq_refl); intros; apply for_each_val_safe; assumption|].
      destruct (present kv "count" && present kv "for_each"); [apply dge_safe|apply safeE_ok].
    Qed.
  End Rec.

  (* top-level statements have no parent object: line_num's assert holds for them only if they are mappings *)
  Lemma walk_safe_n n : forall y m,
    size y < n -> (m = MStmt true -> is_dict y = true) -> safeE Q (walk inc m y).
  Proof.
    induction n as [|n IH]; intros y m Hs Hm; [lia|].
    assert (Hrec : forall y', size y' < size y ->
                   safeE Q (walk inc MField y') /\ safeE Q (walk inc (MStmt false) y')).
    { intros y' Hs'. split; (apply IH; [lia|discriminate]). }
    destruct m as [|top], y; cbn [walk];
      try apply safeE_ok; try (destruct top; [discriminate (Hm eq_refl)|]); try (cbn; apply dge_safe).
    - (* a list: only [mapping] is unwrapped *)
      destruct l as [|x [|x2 l]]; try (cbn; apply dge_safe).
      destruct x; try (cbn; apply dge_safe).
      apply (IH (YMap kv) MField); [|discriminate].
      pose proof (size_seq (l := [YMap kv]) (or_introl eq_refl) (le_n _)). lia.
    - destruct (truthy_opt (lookup "object" kv)) eqn:Ho; [|apply (psv_safe _ _ Hrec), le_n].
      apply safeE_map, (pot_safe _ _ Hrec); auto.
    - destruct (truthy_opt (lookup "object" kv)) eqn:Ho.
      + apply safeE_map, (pot_safe _ _ Hrec); auto.
      + destruct (truthy_opt (lookup "var" kv)) eqn:Hv; [|apply dge_safe].
        apply safeE_map, (pvd_safe _ _ Hrec); auto.
  Qed.

  Lemma walk_safe y m : (m = MStmt true -> is_dict y = true) -> safeE Q (walk inc m y).
  Proof. apply (walk_safe_n (S (size y))). lia. Qed.
  End Walk.

  (* running out of fuel is acceptable, or impossible: the stack is duplicate-free, drawn from `universe`,
     and there is fuel left for everything not yet on it *)
  Definition fuel_ok {A} (universe : list A) (n : nat) (stack : list A) : Prop :=
    Q OutOfFuel \/ NoDup stack /\ incl stack universe /\ length universe < n + length stack.

  Lemma fuel_ok_0 {A} (U stack : list A) : fuel_ok U 0 stack -> Q OutOfFuel.
  Proof. intros [H|(Hn & Hi & Hl)]; [exact H|]. pose proof (NoDup_incl_length Hn Hi). lia. Qed.

  Lemma fuel_ok_nil {A} (U : list A) n : Q OutOfFuel \/ length U < n -> fuel_ok U n [].
  Proof. intros [H|H]; [now left|right]. repeat split; [constructor|easy|cbn [length]; lia]. Qed.

  Lemma fuel_ok_cons {A} (U : list A) n stack x :
    fuel_ok U (S n) stack -> In x U -> ~ In x stack -> fuel_ok U n (x :: stack).
  Proof.
    intros [H|(Hn & Hi & Hl)] Hx Hnx; [now left|right].
    repeat split; [now constructor|now apply incl_cons|cbn [length]; lia].
  Qed.

  Hypothesis Qbad : Q BadOracle.

  Lemma acheck_safe h : forall fuel anc i st,
    fuel_ok (seq 0 (length h)) fuel anc -> safeE Q (acheck h fuel anc i st).
  Proof.
    induction fuel as [|f IH]; intros anc i st Hf; cbn [acheck]; [apply safeE_err, (fuel_ok_0 _ _ Hf)|].
    destruct (nth_error h i) as [n|] eqn:Hn; [|apply safeE_err, Qbad].
    destruct (negb (is_container n) || memn i _); [apply safeE_ok|].
    destruct (memn i anc) eqn:Hia; [apply dge_safe|].
    apply safeE_map. apply aloop_safe. intros c s _. apply IH, fuel_ok_cons; [exact Hf| |].
    - apply in_seq. split; [lia|]. apply nth_error_Some. congruence.
    - now apply memn_false.
  Qed.

  (* the walk needs no more fuel than the document has containers *)
  Lemma alias_check_safe h root : safeE Q (alias_check h root).
  Proof.
    apply acheck_safe, fuel_ok_nil. right. rewrite seq_length. unfold alias_fuel. lia.
  Qed.

  Variable E : env.
  Hypothesis Qenv : forall s, In s (env_crashes E) -> Q (Internal s).
  Hypothesis Quns : Q Unsupported.

  (* expansion refuses a macro that is being expanded: the stack (innermost last) never repeats a name *)
  Lemma include_macro_safe M : forall n parents name,
    fuel_ok (macro_names M) n (rev parents) -> safeE Q (include_macro M n parents name).
  Proof.
    induction n as [|n IH]; intros parents name Hf; cbn [include_macro]; [apply safeE_err, (fuel_ok_0 _ _ Hf)|].
    destruct (lookup_macro name M) as [body|] eqn:Hb; [|apply dge_safe]. cbv zeta.
    set (site := "parse_recipe_yaml.py:include_macro").
    sbind as u Hpe; [apply parse_element_safe, Qdge|].
    destruct (mem name parents) eqn:Hmem; [apply dge_safe|].
    (* the body is parsed with the macro on the stack *)
    set (inc := include_macro M n (parents ++ [name])).
    assert (Hinc : forall nm, safeE Q (inc nm)).
    { intros nm. apply IH. rewrite rev_unit. apply fuel_ok_cons; [exact Hf| |].
      - apply lookup_macro_in. now rewrite Hb.
      - rewrite <- in_rev. now apply mem_false_not_in. }
    assert (Hw : forall N y, size y < N -> safeE Q (walk inc MField y) /\ safeE Q (walk inc (MStmt false) y)).
    { intros N y _. split; (apply walk_safe; [exact Hinc|discriminate]). }
    sbind; [exact (split_include_safe Hpe eq_refl)|].
    sbind; [apply each_inc_safe, Hinc|].
    sbind as fields Hfields; [apply py_attr_safe; discriminate|].
    sbind.
    { apply (parse_fields_safe _ _ (Hw _) _ (Nat.lt_succ_diag_r _)).
      exact (py_attr_typed Hpe Hfields eq_refl). }
    sbind as friends Hfriends; [apply py_attr_safe; discriminate|].
    apply safeE_map. apply (parse_friends_safe _ _ (Hw _) _ (Nat.lt_succ_diag_r _)).
    exact (py_attr_typed Hpe Hfriends eq_refl).
  Qed.

  Lemma categorize1_safe y : safeE Q (categorize1 y).
  Proof.
    unfold categorize1. destruct y; try apply dge_safe.
    destruct (filter _ collection_rules) as [|r [|]]; apply dge_safe || apply safeE_ok.
  Qed.

  Lemma categorize_safe data : safeE Q (categorize data).
  Proof.
    induction data as [|y data IH]; cbn [categorize]; [apply safeE_ok|].
    sbind; [apply categorize1_safe|]. sbind; [exact IH|]. apply safeE_ok.
  Qed.

  Lemma resolve_plugin_safe spec : safeE Q (resolve_plugin E spec).
  Proof.
    unfold resolve_plugin. destruct spec; try apply dge_safe.
    destruct (valid_plugin_name s); [|apply dge_safe].
    destruct (assoc s (penv E)) as [[| | | | |site]|] eqn:Ha; try apply safeE_ok; try apply dge_safe.
    - apply safeE_err, Qenv, in_or_app. right. exact (assoc_crash Ha).
    - apply safeE_err, Qbad.
  Qed.

  Lemma parse_version_safe vals : safeE Q (parse_version vals).
  Proof.
    unfold parse_version. destruct vals as [|v0 rest]; [apply safeE_ok|].
    destruct (is_nan v0); [apply dge_safe|]. destruct (ver23 v0); [|apply dge_safe].
    destruct (forallb _ rest); [apply safeE_ok|apply dge_safe].
  Qed.

  (* what the later phases need of a context: statements are mappings, options have a hashable name *)
  Definition opt_ok (o : kvs) : Prop := exists name, lookup "option" o = Some name /\ hashable name = true.

  Definition CtxOK (c : ctx) : Prop :=
    Forall (fun y => is_dict y = true) (c_stmts c) /\ Forall opt_ok (c_opts c).

  Lemma getitem_category_safe c cats site :
    Categorized cats -> c <> "statement" -> safeE Q (mapM (fun y => py_getitem site y c) (of_category c cats)).
  Proof.
    intros Hf Hc. apply mapM_safe. intros y Hin.
    destruct (getitem_category c cats site y Hf Hc Hin) as (kv & v & _ & _ & ->). apply safeE_ok.
  Qed.

  Lemma top_level_rest_ok cats c1 :
    Categorized cats -> CtxOK c1 -> post Q CtxOK (top_level_rest E cats c1).
  Proof.
    intros Hf [Hst Hop]. unfold top_level_rest. cbv zeta.
    set (site := "parse_recipe_yaml.py:parse_top_level_elements").
    sbind.
    { apply (mapM_post Q opt_ok). intros y Hin.
      destruct (getitem_category "option" cats site y Hf) as (kv & v & -> & Hl & ->); [discriminate|exact Hin|].
      unfold check_name. destruct (hashable v) eqn:Hh; [|apply post_err, Qdge].
      apply post_ok. exists v. split; assumption. }
    sbind.
    { apply safeE_post, mapM_safe. intros y Hin.
      destruct (getitem_category "macro" cats site y Hf) as (kv & v & -> & _ & ->); [discriminate|exact Hin|].
      unfold check_name, py_hash. destruct (hashable v); [apply safeE_ok|apply dge_safe]. }
    sbind; [apply safeE_post, getitem_category_safe; [exact Hf|discriminate]|].
    sbind; [apply safeE_post, mapM_safe; intros; apply resolve_plugin_safe|].
    sbind; [apply safeE_post, getitem_category_safe; [exact Hf|discriminate]|].
    sbind; [apply safeE_post, parse_version_safe|].
    apply post_ok. split; cbn [c_stmts c_opts]; apply Forall_app; split; try assumption.
    apply Forall_forall. intros y Hin. apply of_category_in in Hin; [|exact Hf].
    destruct (categorize1_dict _ _ Hin) as (kv & -> & _). reflexivity.
  Qed.

  Lemma include_one_ok load stack key kv c :
    (forall k d, In k (doc_keys (fenv E)) -> ~ In k (key :: stack) -> post Q CtxOK (load k d c)) ->
    truthy_opt (lookup "include_file" kv) = true ->
    post Q CtxOK (include_one E load stack key (YMap kv) c).
  Proof.
    intros Hload Ht. unfold include_one. cbn [as_dict].
    sbind as u Hpe; [apply safeE_post, parse_element_safe, Qdge|].
    (* the path is there, and the element's spec wants a string *)
    assert (exists s, lookup "include_file" kv = Some (YStr s)) as [s Hl].
    { destruct (lookup "include_file" kv) as [rel|] eqn:Hl; [|discriminate Ht].
      pose proof (spec_typed Hpe Hl eq_refl) as Hs. destruct rel; try discriminate Hs. eauto. }
    unfold py_attr. rewrite Hl. cbn [py_startswith_slash]. destruct (starts_with_slash s); [apply post_err, Qdge|].
    destruct (find_file (key, s) (fenv E)) as [[| |how|k d]|] eqn:Hf; try (apply post_err; assumption).
    - destruct how; apply post_err; try exact Qdge.
      apply Qenv, in_or_app. left. exact (find_file_crash Hf).
    - destruct (String.eqb k key || mem k stack) eqn:Hcyc; [apply post_err, Qdge|].
      apply Hload; [exact (find_file_doc_key Hf)|exact (mem_false_not_in k (key :: stack) Hcyc)].
  Qed.

  Lemma include_all_ok load stack key l :
    (forall k d c, In k (doc_keys (fenv E)) -> ~ In k (key :: stack) -> CtxOK c -> post Q CtxOK (load k d c)) ->
    Forall (fun yb => exists kv, yb = (YMap kv, truthy_opt (lookup "include_file" kv))) l ->
    forall c, CtxOK c -> post Q CtxOK (include_all E load stack key l c).
  Proof.
    intros Hload Hl. induction Hl as [|yb l (kv & ->) _ IH]; intros c Hc; cbn [include_all];
      [now apply post_ok|].
    destruct (truthy_opt (lookup "include_file" kv)) eqn:Ht; [|now apply IH].
    sbind; [apply include_one_ok; [intros; now apply Hload|exact Ht]|]. now apply IH.
  Qed.

  (* inclusion refuses a file that is being loaded: the files above a file and the file itself never repeat *)
  Definition files : list string := "" :: doc_keys (fenv E).

  Lemma load_file_ok n : forall stack key doc c,
    fuel_ok files n (key :: stack) -> CtxOK c -> post Q CtxOK (load_file E n stack key doc c).
  Proof.
    induction n as [|n IH]; intros stack key doc c Hfuel Hc; cbn [load_file];
      [apply post_err, (fuel_ok_0 _ _ Hfuel)|].
    destruct doc; try apply post_err, Qdge.
    sbind as cats Hcats; [apply safeE_post, categorize_safe|]. apply categorize_spec in Hcats as [<- Hf].
    sbind.
    { apply (mapM_post Q (fun yb => exists kv, yb = (YMap kv, truthy_opt (lookup "include_file" kv)))).
      intros y Hin. apply in_map_iff in Hin as ([cy y'] & <- & Hin).
      destruct (categorize1_dict _ _ (proj1 (Forall_forall _ _) Hf _ Hin)) as (kv & Hy & _).
      cbn [snd] in *. rewrite Hy. cbn [py_get]. apply post_ok. exists kv. reflexivity. }
    sbind; [apply include_all_ok; [|assumption..]|now apply top_level_rest_ok].
    intros k d c' Hk Hnk.
    apply IH, fuel_ok_cons; [exact Hfuel|now right|exact Hnk].
  Qed.

  Lemma merge_options_safe opts : forall ver, Forall opt_ok opts -> safeE Q (merge_options opts ver).
  Proof.
    induction opts as [|o opts IH]; intros ver Hf; cbn [merge_options]; [apply safeE_ok|].
    apply Forall_cons_iff in Hf as [(name & Hl & Hh) Hr]. cbn [py_getitem]. unfold py_hash. rewrite Hl, Hh.
    destruct (lookup "default" o); [exact (IH _ Hr)|apply dge_safe].
  Qed.

  Lemma version_assert_safe ver : safeE Q (version_assert ver).
  Proof.
    unfold version_assert. destruct ver as [v|]; [|apply safeE_ok].
    destruct (ver23 v); [apply safeE_ok|apply dge_safe].
  Qed.

  Lemma rr_scan_safe l : safeE Q (rr_scan l).
  Proof.
    induction l as [|[] l IH]; cbn [rr_scan]; [apply safeE_ok|exact IH|apply dge_safe].
  Qed.

  Lemma top_statements_safe inc l :
    (forall nm, safeE Q (inc nm)) -> Forall (fun y => is_dict y = true) l ->
    safeE Q (top_statements inc l).
  Proof.
    intros Hinc Hf. induction Hf as [|y l Hy _ IH]; cbn [top_statements]; [apply safeE_ok|].
    sbind; [now apply walk_safe|]. sbind; [exact IH|]. apply safeE_ok.
  Qed.

  (* Every error of the static phase satisfies Q, if Q holds of DataGenErrors, of what the environment
     raises and of the two artefacts BadOracle / Unsupported, and running out of fuel either satisfies Q
     too or cannot happen: more file fuel than the environment has files, more macro fuel than the recipe
     has macros. *)
  Theorem validate_safe ff mf doc :
    Q OutOfFuel \/
    (S (length (fenv E)) < ff /\
     forall c, load_file E ff [] "" doc ctx0 = Ok c -> length (c_macros c) < mf) ->
    safeE Q (validate E ff mf doc).
  Proof.
    intros Hfuel. unfold validate.
    destruct (load_file_ok ff [] "" doc ctx0) as [Hs Hk]; [|split; constructor|].
    { apply fuel_ok_cons; [|now left|easy]. apply fuel_ok_nil. destruct Hfuel as [H|[Hff _]]; [now left|right].
      pose proof (doc_keys_length (fenv E)). cbn [files length]. lia. }
    sbind as c Hc; [exact Hs|]. destruct (Hk c Hc) as [Hst Hop].
    destruct (c_parser c); [apply safeE_err, Quns|].
    sbind; [apply top_statements_safe; [|exact Hst]|].
    { intros nm. apply include_macro_safe, fuel_ok_nil. destruct Hfuel as [H|[_ Hmf]]; [now left|right].
      pose proof (macro_names_length (c_macros c)). specialize (Hmf c Hc). lia. }
    sbind; [now apply merge_options_safe|]. sbind; [apply version_assert_safe|]. apply rr_scan_safe.
  Qed.

  (* the same for the document as the loader delivers it: what the alias walk accepts unfolds to a tree *)
  Theorem validate_graph_safe ff mf h root :
    Q OutOfFuel \/
    (S (length (fenv E)) < ff /\
     forall doc c, unfold h (S (length h)) root = Ok doc ->
                   load_file E ff [] "" doc ctx0 = Ok c -> length (c_macros c) < mf) ->
    safeE Q (validate_graph E ff mf h root).
  Proof.
    intros Hfuel. unfold validate_graph. sbind as st Hst; [apply alias_check_safe|].
    destruct (alias_walk_accepts_trees _ _ _ Hst) as [doc Hu]. rewrite Hu.
    apply validate_safe. destruct Hfuel as [HQ|[Hff Hmf]]; [now left|right].
    split; [exact Hff|]. intros c. now apply Hmf.
  Qed.
End Safe.

Definition only_env_crashes (E : env) (e : err) : Prop := forall s, e = Internal s -> In s (env_crashes E).
Definition NoOOF (e : err) : Prop := e <> OutOfFuel.

Theorem validate_never_crashes E ff mf doc s :
  validate E ff mf doc = Err (Internal s) -> In s (env_crashes E).
Proof.
  intros H. refine (validate_safe (only_env_crashes E) _ _ E _ _ ff mf doc _ _ H s eq_refl);
    try discriminate; [intros s' Hin s'' [= <-]; exact Hin|left; discriminate].
Qed.

Theorem validate_graph_never_crashes E ff mf h root s :
  validate_graph E ff mf h root = Err (Internal s) -> In s (env_crashes E).
Proof.
  intros H. refine (validate_graph_safe (only_env_crashes E) _ _ E _ _ ff mf h root _ _ H s eq_refl);
    try discriminate; [intros s' Hin s'' [= <-]; exact Hin|left; discriminate].
Qed.
