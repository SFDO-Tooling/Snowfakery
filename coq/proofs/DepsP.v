(* C16's input over the interpreter: the inter-table dependencies it records
   (Globals.intertable_dependencies, from which the CCI mapping generator decides "lookup") are tied to
   the rows it writes.  [R]: every reference cell of every written row has its (table, target table,
   field) triple recorded.  [Sd]: every triple recorded between visible names is backed by such a cell. *)
From Coq Require Import ZArith List Lia Bool.
From SFV Require Import Base Interp.
From SFV.P Require Import BaseP InterpP InterpHeapP.
Import ListNotations. Open Scope Z_scope.

Definition tt_same (s s' : st) : Prop := forall v, target_table s' v = target_table s v.

(* the recorded dependencies and the table every value points at are untouched *)
Definition dq (s s' : st) : Prop := deps s' = deps s /\ tt_same s s'.

Lemma tt_same_trans a b c : tt_same a b -> tt_same b c -> tt_same a c.
Proof. intros t1 t2 v. rewrite (t2 v). apply t1. Qed.

Lemma dq_refl s : dq s s.
Proof. split; [reflexivity|intros v; reflexivity]. Qed.

Lemma dq_trans a b c : dq a b -> dq b c -> dq a c.
Proof. intros [d1 t1] [d2 t2]. split; [congruence|eapply tt_same_trans; eassumption]. Qed.

Lemma tt_of_parts s s' :
  heap s' = heap s ->
  (forall n, option_map s_table (lookup n (slots s')) = option_map s_table (lookup n (slots s))) ->
  tt_same s s'.
Proof.
  intros Hh Hs v. destruct v; cbn [target_table]; try reflexivity.
  - rewrite Hh. reflexivity.
  - specialize (Hs name). destruct (lookup name (slots s')), (lookup name (slots s)); cbn [option_map] in Hs;
      try discriminate; try reflexivity. injection Hs as ->. reflexivity.
Qed.

(* allocating a slot gives it an id, not another table *)
Lemma touch_slot_dq s n s' i : touch_slot s n = Ok (s', i) -> dq s s'.
Proof.
  unfold touch_slot. destruct (lookup n (slots s)) as [sl|] eqn:Hl; [|discriminate].
  destruct (s_alloc sl); intros H; injection H as <- _; [apply dq_refl|].
  split; [reflexivity|]. apply tt_of_parts; [reflexivity|].
  intros m. cbn [slots upd_slots generate_id fst upd_ids].
  destruct (String.eqb m n) eqn:E.
  - apply String.eqb_eq in E. subst m. rewrite lookup_assign_same, Hl. reflexivity.
  - rewrite lookup_assign_other; [reflexivity|]. intros ->. rewrite String.eqb_refl in E. discriminate.
Qed.

Lemma touches_dq s s' : touches s s' -> dq s s'.
Proof.
  induction 1 as [s|s s1 n s2 i _ IH H]; [apply dq_refl|].
  eapply dq_trans; [exact IH|eapply touch_slot_dq, H].
Qed.

Lemma rnd_only_dq s s' : rnd_only s s' -> dq s s'.
Proof. intros [x ->]. split; [reflexivity|]. apply tt_of_parts; reflexivity. Qed.

Lemma ref_cell T j U : Some T = Some U <-> exists i, ORef T j = ORef U i.
Proof.
  split; [intros H; injection H as <-; exists j; reflexivity|intros [i H]; injection H as <- _; reflexivity].
Qed.

Lemma flatten_fields_cells fs : forall s s' l,
  flatten_fields s fs = Ok (s', l) ->
  forall f U, (exists i, In (f, ORef U i) l) <->
              hidden f = false /\ exists v, In (f, v) fs /\ target_table s v = Some U.
Proof.
  induction fs as [|[n v] r IH]; intros s s' l H f U; cbn [flatten_fields] in H.
  - injection H as _ <-. split; [intros [i []]|intros (_ & v & [] & _)].
  - destruct (hidden n) eqn:Hn.
    + specialize (IH _ _ _ H f U). split.
      * intros Hl. apply IH in Hl. destruct Hl as (Hf & w & Hw & Ht).
        split; [exact Hf|]. exists w. split; [right; exact Hw|exact Ht].
      * intros (Hf & w & [Hw|Hw] & Ht); [injection Hw as -> _; congruence|].
        apply IH. split; [exact Hf|]. exists w. split; assumption.
    + dbind H as [s1 o]. dbind H as [s2 rest]. injection H as _ <-.
      (* the cell written for the first field *)
      assert (H1 : dq s s1 /\ forall U, target_table s v = Some U <-> exists i, o = ORef U i).
      { destruct v; cbn [target_table]; try discriminate;
          try (injection E as <- <-; split; [apply dq_refl|];
               intros U'; split; [discriminate|intros [i Hi]; discriminate Hi]).
        - destruct (nth_error (heap s) h) as [c|]; [|discriminate]. injection E as <- <-.
          split; [apply dq_refl|intros U'; apply ref_cell].
        - destruct (lookup name (slots s)) as [sl|]; [|discriminate]. dbind E as [s3 j].
          injection E as <- <-. split; [eapply touch_slot_dq; eassumption|intros U'; apply ref_cell].
        - injection E as <- <-. split; [apply dq_refl|intros U'; apply ref_cell]. }
      destruct H1 as [[_ Htt] Ho]. specialize (IH _ _ _ E0 f U). split.
      * intros [i [Hi|Hi]].
        -- injection Hi as <- ->. split; [exact Hn|]. exists v. split; [left; reflexivity|]. apply Ho. eauto.
        -- destruct IH as [IH _]. destruct IH as (Hf & w & Hw & Ht); [eauto|].
           split; [exact Hf|]. exists w. split; [right; exact Hw|]. rewrite <- Htt. exact Ht.
      * intros (Hf & w & [Hw|Hw] & Ht).
        -- injection Hw as -> ->. apply Ho in Ht. destruct Ht as [i ->]. exists i. left. reflexivity.
        -- destruct IH as [_ IH]. destruct IH as [i Hi].
           { split; [exact Hf|]. exists w. split; [exact Hw|]. rewrite Htt. exact Ht. }
           exists i. right. exact Hi.
Qed.

Lemma flatten_fields_ref fs : forall s s' l,
  flatten_fields s fs = Ok (s', l) ->
  dq s s' /\
  forall f U i, In (f, ORef U i) l -> exists v, In (f, v) fs /\ target_table s v = Some U.
Proof.
  intros s s' l H. split; [eapply touches_dq, flatten_fields_touches, H|].
  intros f U i Hin. apply (flatten_fields_cells _ _ _ _ H f U). exists i. exact Hin.
Qed.

Lemma dep_eqb_eq a b : dep_eqb a b = true -> a = b.
Proof.
  destruct a as [[a1 a2] a3], b as [[b1 b2] b3]. cbn [dep_eqb]. intros H.
  apply andb_true_iff in H. destruct H as [H H3]. apply andb_true_iff in H. destruct H as [H1 H2].
  apply String.eqb_eq in H1, H2, H3. subst. reflexivity.
Qed.

Definition dstep (table : string) (acc : st) (p : string * value) : st :=
  let '(fname, v) := p in
  match target_table acc v with
  | Some tgt => let d := (table, tgt, fname) in
                if existsb (dep_eqb d) (deps acc) then acc else upd_deps acc (deps acc ++ [d])
  | None => acc
  end.

Lemma remember_deps_fold s T fs : remember_deps s T fs = fold_left (dstep T) fs s.
Proof. reflexivity. Qed.

Lemma dstep_spec T s p :
  tt_same s (dstep T s p) /\
  forall d, In d (deps (dstep T s p)) <->
            In d (deps s) \/ exists U, target_table s (snd p) = Some U /\ d = (T, U, fst p).
Proof.
  destruct p as [f v]. cbn [dstep fst snd].
  destruct (target_table s v) as [tgt|].
  - destruct (existsb (dep_eqb (T, tgt, f)) (deps s)) eqn:Ex.
    + split; [intros w; reflexivity|]. intros d. split; [auto|].
      intros [Hd|(U & HU & ->)]; [exact Hd|]. injection HU as <-.
      apply existsb_exists in Ex. destruct Ex as (d & Hd & He). apply dep_eqb_eq in He. subst d. exact Hd.
    + split; [apply tt_of_parts; reflexivity|]. intros d. cbn [deps upd_deps]. rewrite in_app_iff. split.
      * intros [Hd|[<-|[]]]; [left; exact Hd|]. right. exists tgt. auto.
      * intros [Hd|(U & HU & ->)]; [left; exact Hd|]. injection HU as <-. right. left. reflexivity.
  - split; [intros w; reflexivity|]. intros d. split; [auto|].
    intros [Hd|(U & HU & _)]; [exact Hd|discriminate HU].
Qed.

Lemma remember_deps_spec fs : forall s T,
  tt_same s (remember_deps s T fs) /\
  forall d, In d (deps (remember_deps s T fs)) <->
            In d (deps s) \/ exists f v U, In (f, v) fs /\ target_table s v = Some U /\ d = (T, U, f).
Proof.
  induction fs as [|p r IH]; intros s T; rewrite remember_deps_fold; cbn [fold_left].
  - split; [intros v; reflexivity|]. intros d. split; [auto|]. intros [Hd|(f & v & U & [] & _)]. exact Hd.
  - rewrite <- remember_deps_fold.
    destruct (dstep_spec T s p) as [T1 D1], (IH (dstep T s p) T) as [T2 D2]. destruct p as [f0 v0].
    split; [eapply tt_same_trans; eassumption|].
    intros d. split.
    + intros Hd. apply D2 in Hd. destruct Hd as [Hd|(f & v & U & Hin & Ht & ->)].
      * apply D1 in Hd. destruct Hd as [Hd|(U & Ht & ->)]; [left; exact Hd|].
        right. exists f0, v0, U. split; [left; reflexivity|auto].
      * right. exists f, v, U. rewrite <- (T1 v). split; [right; exact Hin|auto].
    + intros Hd. apply D2. destruct Hd as [Hd|(f & v & U & [Heq|Hin] & Ht & ->)].
      * left. apply D1. left. exact Hd.
      * injection Heq as <- <-. left. apply D1. right. exists U. auto.
      * right. exists f, v, U. rewrite (T1 v). auto.
Qed.

Definition R (s : st) : Prop :=
  forall row f U i, In row (out s) -> In (f, ORef U i) (snd row) -> In (fst row, U, f) (deps s).

Lemma R_same s s' : out s' = out s -> incl (deps s) (deps s') -> R s -> R s'.
Proof. intros Ho Hi HR row f U i Hr Hf. rewrite Ho in Hr. apply Hi. eapply HR; eassumption. Qed.

(* [D]: what was recorded before, e.g. by earlier runs *)
Definition Sd (D : list (string * string * string)) (s : st) : Prop :=
  forall T U f, In (T, U, f) (deps s) ->
    In (T, U, f) D \/ hidden T = true \/ hidden f = true \/
    exists row i, In row (out s) /\ fst row = T /\ In (f, ORef U i) (snd row).

(* what was backed stays backed while rows are only added *)
Lemma Sd_out_grows D s s' : incl (out s) (out s') -> Sd D s ->
  forall T U f, In (T, U, f) (deps s) ->
    In (T, U, f) D \/ hidden T = true \/ hidden f = true \/
    exists row i, In row (out s') /\ fst row = T /\ In (f, ORef U i) (snd row).
Proof.
  intros Ho HS T U f Hin. destruct (HS T U f Hin) as [H|[H|[H|(row & i & Hr & Ht & Hf)]]]; auto.
  right; right; right. exists row, i. auto.
Qed.

Lemma Sd_same D s s' : deps s' = deps s -> out s' = out s -> Sd D s -> Sd D s'.
Proof.
  intros Hd Ho HS T U f Hin. rewrite Hd in Hin.
  apply (Sd_out_grows D s); [rewrite Ho; apply incl_refl|exact HS|exact Hin].
Qed.

Definition keeps (s s' : st) : Prop :=
  incl (deps s) (deps s') /\ (R s -> R s') /\ forall D, Sd D s -> Sd D s'.

Lemma keeps_refl s : keeps s s.
Proof. unfold keeps. auto using incl_refl. Qed.

Lemma keeps_trans a b c : keeps a b -> keeps b c -> keeps a c.
Proof. intros (I1 & R1 & S1) (I2 & R2 & S2). split; [eapply incl_tran; eassumption|auto]. Qed.

Lemma keeps_same s s' : deps s' = deps s -> out s' = out s -> keeps s s'.
Proof.
  intros Hd Ho. split; [|split].
  - rewrite Hd. apply incl_refl.
  - apply R_same; [exact Ho|rewrite Hd; apply incl_refl].
  - intros D. apply Sd_same; assumption.
Qed.

(* The one step that records and the one step that writes come as a pair, on the same cell:
   neither keeps both invariants alone (recording first breaks Sd, writing first would break R),
   together they do, because remember_deps records a field exactly if flatten then writes a
   reference cell for it or it is hidden. *)
Lemma record_and_write s h c s5 s' :
  nth_error (heap s) h = Some c ->
  rnd_only (remember_deps s (c_table c) (c_fields c)) s5 -> write_row s5 h = Ok s' -> keeps s s'.
Proof.
  intros Hc [x ->] Hw. rewrite remember_deps_only in Hw.
  pose proof (proj2 (remember_deps_spec (c_fields c) s (c_table c))) as Hrec.
  set (s5 := upd_rnd _ x) in Hw. change (deps (remember_deps _ _ _)) with (deps s5) in Hrec.
  (* s5 is s with more dependencies and another random-reference state *)
  assert (Htt : tt_same s s5) by (apply tt_of_parts; reflexivity).
  assert (Hinc : incl (deps s) (deps s5)) by (intros d Hin; apply Hrec; left; exact Hin).
  destruct (write_row_cases Hw) as (c' & Hc' & [[Hhid ->]|(_ & s1 & fs & Hfl & ->)]);
    change (heap s5) with (heap s) in Hc'; rewrite Hc in Hc'; injection Hc' as <-.
  - (* hidden table: no row, and what is newly recorded has a hidden source table *)
    split; [exact Hinc|split].
    + apply R_same; [reflexivity|exact Hinc].
    + intros D HS T U f Hin. apply Hrec in Hin. destruct Hin as [Hin|(f0 & v & U0 & _ & _ & Heq)].
      * apply (Sd_out_grows D s); [apply incl_refl|exact HS|exact Hin].
      * injection Heq as -> _ _. auto.
  - (* one row, with a reference cell for every visible field that points at a table *)
    pose proof (flatten_fields_cells _ _ _ _ Hfl) as Hcells.
    apply flatten_fields_touches in Hfl.
    destruct (touches_dq _ _ Hfl) as [Hd1 _].
    pose proof (touches_out Hfl : out s1 = out s) as Ho1.
    split; [|split].
    + cbn [deps upd_out]. rewrite Hd1. exact Hinc.
    + intros HR row f U i Hr Hf. cbn [deps out upd_out] in *. rewrite Hd1. apply Hrec.
      destruct Hr as [<-|Hr].
      * destruct Hf as [Hf|Hf]; [discriminate Hf|]. right.
        destruct (Hcells f U) as [Hv _]. destruct Hv as (_ & v & Hv & Ht); [exists i; exact Hf|].
        exists f, v, U. rewrite <- (Htt v). auto.
      * left. rewrite Ho1 in Hr. eapply HR; eassumption.
    + intros D HS T U f Hin. cbn [deps upd_out] in Hin. rewrite Hd1 in Hin. apply Hrec in Hin.
      destruct Hin as [Hin|(f0 & v & U0 & Hv & Ht & Heq)].
      * apply (Sd_out_grows D s); [cbn [out upd_out]; rewrite Ho1; apply incl_tl, incl_refl|exact HS|exact Hin].
      * injection Heq as -> -> ->. destruct (hidden f0) eqn:Hf0; [auto|]. right; right; right.
        destruct (Hcells f0 U0) as [_ Hj]. destruct Hj as [j Hj].
        { split; [exact Hf0|]. exists v. rewrite (Htt v). auto. }
        eexists _, j. cbn [out upd_out]. split; [left; reflexivity|]. split; [reflexivity|right; exact Hj].
Qed.

Lemma exec_keeps {e tk s s' r} : exec e tk s s' r -> keeps s s'.
Proof.
  apply (exec_rel e keeps keeps_refl keeps_trans); intros.
  - apply keeps_same; [apply touches_dq, H|apply touches_out, H].
  - apply keeps_same; reflexivity.
  - apply keeps_same; rewrite set_field_only; reflexivity.
  - apply random_reference_rnd in H. apply keeps_same; [apply rnd_only_dq, H|apply rnd_only_out, H].
  - (* a row: the new cell keeps its table while its fields are filled in *)
    destruct (new_cell_kept H0 H2) as [Ht _]. rewrite <- Ht in H3.
    eapply keeps_trans; [|eapply keeps_trans; [exact H1|]].
    + apply keeps_same; rewrite new_row_only, (new_row_id_only H); reflexivity.
    + eapply record_and_write; [exact H2|eapply remember_history_rnd; exact H3|exact H4].
Qed.

Theorem run_deps fuel : forall e tk s s' r,
  run fuel e tk s = Ok (s', r) -> incl (deps s) (deps s') /\ (R s -> R s').
Proof. intros e tk s s' r H. apply run_exec, exec_keeps in H. split; apply H. Qed.

Theorem run_deps_sound fuel : forall e tk s s' r D,
  run fuel e tk s = Ok (s', r) -> Sd D s -> Sd D s'.
Proof. intros e tk s s' r D H. apply run_exec, exec_keeps in H. apply H. Qed.

Lemma iteration_keeps e stmts c s s' : iteration e stmts c s = Ok s' -> keeps s s'.
Proof.
  intros H. destruct (iteration_exec H) as (s1 & r & E & _ & ->).
  eapply keeps_trans; [exact (exec_keeps E)|]. apply keeps_same; reflexivity.
Qed.

Lemma iterations_keeps {k e stmts c s s'} : iterations k e stmts c s = Ok s' -> keeps s s'.
Proof. revert k c s s'. apply iterations_preorder; [apply keeps_refl|apply keeps_trans|apply iteration_keeps]. Qed.

Theorem written_references_recorded e stmts c k s0 s :
  out s0 = [] -> iterations k e stmts c s0 = Ok s ->
  forall row f U i, In row (out s) -> In (f, ORef U i) (snd row) -> In (fst row, U, f) (deps s).
Proof.
  intros Ho H. apply (iterations_keeps H).
  intros row f U i Hr. rewrite Ho in Hr. destruct Hr.
Qed.

Theorem written_references_recorded_fresh (r : recipe) k s :
  run_fresh r k = Ok s ->
  forall row f U i, In row (out s) -> In (f, ORef U i) (snd row) -> In (fst row, U, f) (deps s).
Proof. unfold run_fresh. apply written_references_recorded. reflexivity. Qed.

Theorem recorded_dependencies_persist e stmts c k s0 s :
  iterations k e stmts c s0 = Ok s -> incl (deps s0) (deps s).
Proof. intros H. apply (iterations_keeps H). Qed.

Theorem recorded_dependencies_backed e stmts c k s0 s :
  iterations k e stmts c s0 = Ok s ->
  forall T U f, In (T, U, f) (deps s) ->
    In (T, U, f) (deps s0) \/ hidden T = true \/ hidden f = true \/
    exists row i, In row (out s) /\ fst row = T /\ In (f, ORef U i) (snd row).
Proof.
  intros H. apply (iterations_keeps H).
  intros T U f Hin. left. exact Hin.
Qed.
