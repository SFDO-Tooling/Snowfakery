(* UniqueIdP.v — proofs about theories/UniqueId.v (property C13).
   Injectivity comes from a left inverse wherever there is one: split_on undoes join, from_digits undoes
   to_digits, unscramble undoes scramble, alpha_decode undoes alpha_string.  Only the step from the decimal
   value back to the join string needs an argument of its own, about canonical digit strings (fd_canon_inj).
   The process machine p_run is handled by one invariant, pinv; programs over names (n_run) compile to it. *)
From Coq Require Import ZArith List FinFun Lia Bool ZifyBool.
From SFV Require Import Base UniqueId.
From SFV.P Require Import BaseP.
Import ListNotations. Open Scope Z_scope.

Lemma app_inj_len {A} : forall (a a' b b' : list A),
  length a = length a' -> a ++ b = a' ++ b' -> a = a' /\ b = b'.
Proof.
  induction a as [|x a IH]; intros [|x' a'] b b' Hl He; try discriminate; auto.
  injection Hl as Hl. injection He as -> He. destruct (IH a' b b' Hl He) as [-> ->]. auto.
Qed.

Lemma app_tail2 {A} (l l' : list A) c i c' i' :
  l ++ [c; i] = l' ++ [c'; i'] -> c = c' /\ i = i'.
Proof.
  intros H. apply (f_equal (@rev A)) in H. rewrite !rev_app_distr in H. injection H. auto.
Qed.

Lemma map_repeat {A B} (f : A -> B) x k : map f (repeat x k) = repeat (f x) k.
Proof. induction k; cbn [repeat map]; congruence. Qed.

Lemma NoDup_map_In_inj {A B} (f : A -> B) : forall l x y,
  NoDup (map f l) -> In x l -> In y l -> f x = f y -> x = y.
Proof.
  induction l as [|a l IH]; intros x y Hnd Hx Hy He; [contradiction|].
  cbn [map] in Hnd. apply NoDup_cons_iff in Hnd as [Ha Hl].
  destruct Hx as [->|Hx], Hy as [->|Hy]; auto.
  - contradict Ha. rewrite He. apply in_map, Hy.
  - contradict Ha. rewrite <- He. apply in_map, Hx.
Qed.

Lemma NoDup_of_injective_keys {K V} (F : K -> result V) keys vs :
  NoDup keys ->
  (forall x y v, In x keys -> In y keys -> F x = Ok v -> F y = Ok v -> x = y) ->
  map F keys = map Ok vs -> NoDup vs.
Proof.
  intros Hnd. revert vs. induction Hnd as [|a l Ha Hl IH]; intros [|v vs] Hinj He; try discriminate; [constructor|].
  injection He as Ea He. constructor.
  - intros Hin. apply Ha. assert (Hy : In (Ok v) (map F l)) by (rewrite He; apply in_map, Hin).
    apply in_map_iff in Hy as (y & Hy & Hyl). rewrite (Hinj a y v); cbn; auto.
  - apply (IH vs); [|exact He]. intros x y w Hx Hy. apply Hinj; cbn; auto.
Qed.

Definition digit (b d : Z) : Prop := 0 <= d < b.

Definition canon (s : list Z) : Prop :=
  match s with
  | [] => False
  | [_] => True
  | d :: _ => d <> 0
  end.

Lemma canon_cons d t : d <> 0 -> canon (d :: t).
Proof. destruct t; cbn; auto. Qed.

Lemma pow_len_succ b (n : nat) : b ^ Z.of_nat (S n) = b * b ^ Z.of_nat n.
Proof. rewrite Nat2Z.inj_succ. apply Z.pow_succ_r. lia. Qed.

Lemma fd_acc b t : forall a,
  fold_left (fun acc d => acc * b + d) t a = a * b ^ Z.of_nat (length t) + from_digits b t.
Proof.
  unfold from_digits. induction t as [|d t IH]; intros a; cbn [fold_left length].
  - cbn [Z.of_nat]. rewrite Z.pow_0_r. lia.
  - rewrite (IH (a * b + d)), (IH (0 * b + d)), pow_len_succ. lia.
Qed.

Lemma from_digits_cons b d t :
  from_digits b (d :: t) = d * b ^ Z.of_nat (length t) + from_digits b t.
Proof. unfold from_digits at 1. cbn [fold_left]. rewrite fd_acc. lia. Qed.

Lemma from_digits_snoc b s d : from_digits b (s ++ [d]) = from_digits b s * b + d.
Proof. unfold from_digits. rewrite fold_left_app. reflexivity. Qed.

Lemma fd_bounds b s : 2 <= b -> Forall (digit b) s ->
  0 <= from_digits b s < b ^ Z.of_nat (length s).
Proof.
  intros Hb. induction 1 as [|d t Hd Ht IH].
  - cbn. lia.
  - rewrite from_digits_cons. cbn [length]. rewrite pow_len_succ.
    assert (0 < b ^ Z.of_nat (length t)) by (apply Z.pow_pos_nonneg; lia). unfold digit in Hd. nia.
Qed.

Lemma fd_inj_len b : 2 <= b -> forall s s',
  length s = length s' -> Forall (digit b) s -> Forall (digit b) s' ->
  from_digits b s = from_digits b s' -> s = s'.
Proof.
  intros Hb. induction s as [|d t IH]; intros [|d' t'] Hl Hs Hs' He; try discriminate; [reflexivity|].
  injection Hl as Hl. apply Forall_cons_iff in Hs as [Hd Ht], Hs' as [Hd' Ht'].
  rewrite !from_digits_cons, Hl in He.
  pose proof (fd_bounds b t Hb Ht) as B. rewrite Hl in B. pose proof (fd_bounds b t' Hb Ht').
  assert (d = d') as <- by nia. f_equal. apply IH; auto. lia.
Qed.

Lemma fd_lt_of_shorter b s s' : 2 <= b ->
  Forall (digit b) s -> Forall (digit b) s' -> canon s -> canon s' ->
  (length s < length s')%nat -> from_digits b s < from_digits b s'.
Proof.
  intros Hb Hs Hs' Hne Hc Hl. destruct s' as [|d' t']; [contradiction|].
  apply Forall_cons_iff in Hs' as [Hd' Ht']. unfold digit in Hd'. cbn [length] in Hl.
  assert (1 <= d').
  { destruct t'; [destruct s; [contradiction|cbn [length] in Hl; lia]|cbn [canon] in Hc; lia]. }
  rewrite from_digits_cons.
  pose proof (fd_bounds b s Hb Hs). pose proof (fd_bounds b t' Hb Ht').
  assert (b ^ Z.of_nat (length s) <= b ^ Z.of_nat (length t')) by (apply Z.pow_le_mono_r; lia).
  nia.
Qed.

Lemma fd_canon_inj b s s' : 2 <= b ->
  Forall (digit b) s -> Forall (digit b) s' -> canon s -> canon s' ->
  from_digits b s = from_digits b s' -> s = s'.
Proof.
  intros Hb Hs Hs' Hc Hc' He.
  destruct (Nat.lt_trichotomy (length s) (length s')) as [H|[H|H]].
  - pose proof (fd_lt_of_shorter b s s' Hb Hs Hs' Hc Hc' H). lia.
  - apply (fd_inj_len b Hb); auto.
  - pose proof (fd_lt_of_shorter b s' s Hb Hs' Hs Hc' Hc H). lia.
Qed.

(* fuel f suffices for numbers below 2^f *)
Lemma digits_lsb_spec b : 2 <= b -> forall f n, 0 <= n < 2 ^ Z.of_nat f ->
  from_digits b (rev (digits_lsb f b n)) = n /\
  Forall (digit b) (digits_lsb f b n) /\
  (0 < n -> exists d l, digits_lsb f b n = l ++ [d] /\ 0 < d).
Proof.
  intros Hb. induction f as [|f IH]; intros n Hn; cbn [digits_lsb].
  - cbn in Hn. splits; [cbn; lia|constructor|lia].
  - destruct (n <? b) eqn:E.
    + splits; [reflexivity|repeat constructor; lia|exists n, []; auto].
    + rewrite pow_len_succ in Hn.
      destruct (IH (n / b)) as (Hv & Hf & Hd).
      { split; [apply Z.div_pos; lia|apply Z.div_lt_upper_bound; nia]. }
      destruct Hd as (d & l & Hl & Hd); [apply Z.div_str_pos; lia|].
      cbn [rev]. rewrite from_digits_snoc, Hv. splits.
      * pose proof (Z.div_mod n b). lia.
      * constructor; [apply Z.mod_pos_bound; lia|exact Hf].
      * intros _. exists d, (n mod b :: l). rewrite Hl. auto.
Qed.

Lemma to_digits_fuel n : 0 <= n -> 0 <= n < 2 ^ Z.of_nat (S (Z.to_nat (Z.log2 n))).
Proof.
  intros Hn. rewrite Nat2Z.inj_succ, Z2Nat.id by apply Z.log2_nonneg.
  destruct (Z.eq_dec n 0) as [->|Hnz]; [cbn; lia|].
  pose proof (Z.log2_spec n). lia.
Qed.

Lemma to_digits_value b n : 2 <= b -> 0 <= n -> from_digits b (to_digits b n) = n.
Proof. intros Hb Hn. apply (digits_lsb_spec b Hb _ n (to_digits_fuel n Hn)). Qed.

Lemma to_digits_digits b n : 2 <= b -> 0 <= n -> Forall (digit b) (to_digits b n).
Proof. intros Hb Hn. apply Forall_rev, (digits_lsb_spec b Hb _ n (to_digits_fuel n Hn)). Qed.

Lemma to_digits_zero b : 2 <= b -> to_digits b 0 = [0].
Proof. intros Hb. cbv [to_digits Z.log2 Z.to_nat digits_lsb rev app]. destruct (0 <? b) eqn:E; [reflexivity|lia]. Qed.

Lemma to_digits_canon b n : 2 <= b -> 0 <= n -> canon (to_digits b n).
Proof.
  intros Hb Hn. destruct (Z.eq_dec n 0) as [->|Hnz]; [rewrite to_digits_zero by lia; exact I|].
  destruct (digits_lsb_spec b Hb _ n (to_digits_fuel n Hn)) as (_ & _ & d & l & Hl & Hd); [lia|].
  unfold to_digits. rewrite Hl, rev_unit. apply canon_cons. lia.
Qed.

(* join9 and print_template are both sep.join(chunks) *)
Fixpoint join (sep : Z) (cs : list (list Z)) : list Z :=
  match cs with
  | [] => []
  | [c] => c
  | c :: r => c ++ sep :: join sep r
  end.

Lemma join9_join cs : join9 cs = join 9 cs.
Proof. induction cs as [|c [|c2 r] IH]; cbn [join9 join] in *; congruence. Qed.

Lemma print_template_join tpl : print_template tpl = join 44 (map print_part tpl).
Proof. induction tpl as [|p [|q r] IH]; cbn [print_template join map] in *; congruence. Qed.

Lemma Forall_join (P : Z -> Prop) sep cs : P sep -> Forall (Forall P) cs -> Forall P (join sep cs).
Proof.
  intros Hs. induction 1 as [|c r Hc Hr IH]; [constructor|].
  destruct r; [exact Hc|]. cbn [join]. apply Forall_app. split; [exact Hc|]. constructor; [exact Hs|exact IH].
Qed.

Lemma split_on_nonempty sep s : split_on sep s <> [].
Proof.
  induction s as [|c r IH]; cbn [split_on]; [discriminate|].
  destruct (c =? sep); [discriminate|]. destruct (split_on sep r); [contradiction|discriminate].
Qed.

Lemma split_on_nosep sep s : ~ In sep s -> split_on sep s = [s].
Proof.
  induction s as [|c r IH]; intros Hn; cbn [split_on]; [reflexivity|].
  destruct (c =? sep) eqn:E; [contradict Hn; left; lia|].
  rewrite IH by (intros H; apply Hn; right; exact H). reflexivity.
Qed.

Lemma split_on_app_sep sep s r : ~ In sep s -> split_on sep (s ++ sep :: r) = s :: split_on sep r.
Proof.
  induction s as [|c s IH]; intros Hn; cbn [app split_on].
  - rewrite Z.eqb_refl. reflexivity.
  - destruct (c =? sep) eqn:E; [contradict Hn; left; lia|].
    rewrite IH by (intros H; apply Hn; right; exact H). reflexivity.
Qed.

Lemma split_on_join sep cs : cs <> [] -> Forall (fun c => ~ In sep c) cs ->
  split_on sep (join sep cs) = cs.
Proof.
  intros Hne H. induction H as [|c r Hc Hr IH]; [contradiction|]. destruct r as [|c2 r].
  - apply split_on_nosep, Hc.
  - cbn [join]. rewrite split_on_app_sep by exact Hc. f_equal. apply IH. discriminate.
Qed.

Definition ochunk (c : list Z) : Prop := Forall (digit 8) c /\ canon c.

Definition nonneg (l : list Z) : Prop := Forall (fun x => 0 <= x) l.

Lemma map_oct_ochunk l : nonneg l -> Forall ochunk (map oct l).
Proof.
  intros H. apply Forall_map. eapply Forall_impl; [|exact H]. intros n Hn.
  split; [apply to_digits_digits|apply to_digits_canon]; auto; lia.
Qed.

Lemma map_oct_value l : nonneg l -> map (from_digits 8) (map oct l) = l.
Proof.
  intros H. rewrite map_map. rewrite <- (map_id l) at 2. apply map_ext_Forall.
  eapply Forall_impl; [|exact H]. intros n Hn. apply to_digits_value; auto; lia.
Qed.

Lemma join9_digits cs : Forall ochunk cs -> Forall (digit 10) (join9 cs).
Proof.
  intros H. rewrite join9_join. apply Forall_join; [unfold digit; lia|].
  eapply Forall_impl; [|exact H]. intros c [Hc _]. eapply Forall_impl; [|exact Hc]. unfold digit. intros; lia.
Qed.

(* A join string, read as a decimal number, may have one leading zero: the chunk "0" in front of
   further chunks gives "09...".  So it is [pad9 c] for a canonical c. *)
Definition pad9 (c : list Z) : list Z := if hd 0 c =? 9 then 0 :: c else c.

Lemma fd_pad9 c : from_digits 10 (pad9 c) = from_digits 10 c.
Proof. unfold pad9. destruct (hd 0 c =? 9); [rewrite from_digits_cons; lia|reflexivity]. Qed.

Lemma join9_pad9 cs : cs <> [] -> Forall ochunk cs ->
  exists c, Forall (digit 10) c /\ canon c /\ join9 cs = pad9 c.
Proof.
  intros Hne H. pose proof (join9_digits cs H) as Hd. rewrite join9_join in *.
  destruct H as [|[|d t] r [Hf Hc] _]; try contradiction.
  apply Forall_inv in Hf. unfold digit in Hf. destruct (Z.eq_dec d 0) as [->|Hnz].
  - (* the chunk "0": alone it is the whole string; in front of further chunks, "09..." is pad9 "9..." *)
    destruct t; [|cbn [canon] in Hc; congruence]. destruct r as [|c2 r]; [exists [0]; auto|].
    exists (9 :: join 9 (c2 :: r)). splits; [exact (Forall_inv_tail Hd)|apply canon_cons; lia|reflexivity].
  - (* a string that starts with another octal digit is canonical, and pad9 leaves it as it is *)
    exists (join 9 ((d :: t) :: r)). unfold pad9.
    replace (hd 0 (join 9 ((d :: t) :: r)) =? 9) with false by (destruct r; cbn [join app hd]; lia).
    splits; [exact Hd| |reflexivity]. destruct r; [exact Hc|apply canon_cons, Hnz].
Qed.

Lemma ochunk_no9 c : ochunk c -> ~ In 9 c.
Proof. intros [Hc _] Hin. rewrite Forall_forall in Hc. specialize (Hc 9 Hin). unfold digit in Hc. lia. Qed.

(* the decimal value determines the join string (canonical strings), the join string its chunks (split) *)
Lemma join9_value_inj cs cs' : cs <> [] -> cs' <> [] -> Forall ochunk cs -> Forall ochunk cs' ->
  from_digits 10 (join9 cs) = from_digits 10 (join9 cs') -> cs = cs'.
Proof.
  intros Hne Hne' H H' He.
  destruct (join9_pad9 cs Hne H) as (c & Hd & Hc & E), (join9_pad9 cs' Hne' H') as (c' & Hd' & Hc' & E').
  rewrite E, E', !fd_pad9 in He. apply (fd_canon_inj 10) in He; auto; [|lia]. subst c'. rewrite <- E' in E.
  rewrite <- (split_on_join 9 cs), <- (split_on_join 9 cs'), <- !join9_join, E; auto.
  all: eapply Forall_impl; [apply ochunk_no9|assumption].
Qed.

Lemma encode_inj l l' :
  l <> [] -> l' <> [] -> nonneg l -> nonneg l' -> encode l = encode l' -> l = l'.
Proof.
  intros Hn Hn' H H' He. rewrite <- (map_oct_value l H), <- (map_oct_value l' H'). f_equal.
  apply join9_value_inj; auto using map_oct_ochunk.
  all: intros Hm; apply map_eq_nil in Hm; contradiction.
Qed.

Lemma instantiate_inj tpl pid pid' c c' i i' :
  length pid = length pid' ->
  instantiate tpl pid c i = instantiate tpl pid' c' i' ->
  (In PIndex tpl -> i = i') /\ (In PContext tpl -> c = c') /\ (In PPid tpl -> pid = pid').
Proof.
  intros Hl. unfold instantiate. induction tpl as [|p tpl IH]; cbn [flat_map In]; intros He; [splits; intros []|].
  apply app_inj_len in He as [Hh Ht]; [|destruct p; cbn [part_nums length]; auto].
  destruct (IH Ht) as (I1 & I2 & I3).
  splits; intros [Hp|Hin]; auto; subst p; cbn [part_nums] in Hh; congruence.
Qed.

Lemma instantiate_has_index tpl pid c i : In PIndex tpl -> instantiate tpl pid c i <> [].
Proof.
  intros Hin He. apply (in_nil (a := i)). rewrite <- He.
  apply in_flat_map. exists PIndex. cbn. auto.
Qed.

Lemma nonneg_forallb l : forallb (fun x => 0 <=? x) l = true <-> nonneg l.
Proof.
  unfold nonneg. rewrite forallb_forall, Forall_forall.
  split; intros H x Hx; specialize (H x Hx); lia.
Qed.

Lemma plain_value_Ok tpl pid c i v :
  plain_value tpl pid c i = Ok v <->
  nonneg (instantiate tpl pid c i) /\ v = encode (instantiate tpl pid c i).
Proof.
  unfold plain_value. rewrite <- nonneg_forallb. destruct (forallb _ _).
  - split; [intros [= <-]; auto|intros [_ ->]; reflexivity].
  - split; [discriminate|intros [[=] _]].
Qed.

Lemma plain_value_inj tpl tpl' pid pid' c c' i i' v :
  In PIndex tpl -> In PIndex tpl' ->
  plain_value tpl pid c i = Ok v -> plain_value tpl' pid' c' i' = Ok v ->
  instantiate tpl pid c i = instantiate tpl' pid' c' i'.
Proof.
  intros Hi Hi' H H'. apply plain_value_Ok in H as [Hn ->], H' as [Hn' He].
  apply encode_inj; auto using instantiate_has_index.
Qed.

Lemma default_instantiate big pid c i :
  instantiate (default_numeric_tpl big) pid c i = (if big then pid else []) ++ [c; i].
Proof. destruct big; reflexivity. Qed.

Lemma default_numeric_has_index big : In PIndex (default_numeric_tpl big).
Proof. destruct big; cbn; auto. Qed.

Lemma unscramble_fields mask X key nb : 0 <= key < 10 -> 0 <= nb < 1000 ->
  unscramble mask (X * 10000 + key * 1000 + nb) = Ok (Z.lxor X (mask key nb) * 10 + key).
Proof.
  intros Hk Hn. unfold unscramble. set (v := X * 10000 + key * 1000 + nb).
  replace (v mod 1000) with nb by (apply (Z.mod_unique _ _ (X * 10 + key)); lia).
  replace (v - nb) with (X * 10000 + key * 1000) by lia. cbv zeta.
  replace ((X * 10000 + key * 1000) mod 10000) with (key * 1000) by (apply (Z.mod_unique _ _ X); lia).
  rewrite Z.div_mul by lia. replace (X * 10000 + key * 1000 - key * 1000) with (X * 10000) by lia.
  rewrite Z.mod_mul, Z.div_mul by lia. reflexivity.
Qed.

Lemma scramble_ok mask nbits n mb v : scramble mask nbits n mb = Ok v ->
  exists nb, 10 <= nb < 1000 /\
    v = Z.lxor (n / 10) (mask (n mod 10) nb) * 10000 + (n mod 10) * 1000 + nb.
Proof.
  unfold scramble. cbv zeta. set (nb := Z.max _ _).
  destruct (mb <? 10); [discriminate|]. destruct (n / 10 <? 0); [discriminate|].
  destruct (nb <? 1000) eqn:E; [|discriminate]. intros [= <-]. exists nb.
  splits; [subst nb; apply Z.max_le_iff; left; lia|apply Z.ltb_lt, E|reflexivity].
Qed.

Lemma scramble_unscramble mask nbits n mb v :
  scramble mask nbits n mb = Ok v -> unscramble mask v = Ok n.
Proof.
  intros H. destruct (scramble_ok _ _ _ _ _ H) as (nb & Hnb & ->).
  pose proof (Z.mod_pos_bound n 10). pose proof (Z.div_mod n 10).
  rewrite unscramble_fields, Z.lxor_assoc, Z.lxor_nilpotent, Z.lxor_0_r by lia. f_equal. lia.
Qed.

(* nbits, nbits': injective also when the float logarithm gave different bit counts for the two
   calls: the result carries the bit count that was used *)
Lemma scramble_inj mask nbits nbits' n n' mb mb' v :
  scramble mask nbits n mb = Ok v -> scramble mask nbits' n' mb' = Ok v -> n = n'.
Proof. intros H H'. apply scramble_unscramble in H, H'. congruence. Qed.

Lemma scramble_total mask nbits n mb :
  0 <= n -> 10 <= mb <= 1012 -> (n / 10 <> 0 -> nbits (n / 10) < 1000) ->
  exists v, scramble mask nbits n mb = Ok v.
Proof.
  intros Hn Hmb Hnb. unfold scramble. pose proof (Z.div_pos n 10 Hn) as Hq.
  set (m := Z.max 10 (mb - 13)). set (num := n / 10) in *. cbv zeta.
  destruct (mb <? 10) eqn:E1; [lia|]. destruct (num <? 0) eqn:E2; [lia|].
  replace (Z.max m _ <? 1000) with true; [cbn [negb]; eauto|].
  symmetry. apply Z.ltb_lt. destruct (num =? 0) eqn:E; lia.
Qed.

Fixpoint index_of (c : Z) (l : list Z) : Z :=
  match l with
  | [] => 0
  | x :: r => if x =? c then 0 else 1 + index_of c r
  end.

Lemma index_of_nth : forall l k c, NoDup l -> nth_error l k = Some c -> index_of c l = Z.of_nat k.
Proof.
  induction l as [|x l IH]; intros [|k] c Hnd Hn; try discriminate;
    apply NoDup_cons_iff in Hnd as [Hx Hl]; cbn [nth_error index_of] in *.
  - injection Hn as ->. rewrite Z.eqb_refl. reflexivity.
  - destruct (x =? c) eqn:E.
    + contradict Hx. apply nth_error_In in Hn. assert (x = c) as -> by lia. exact Hn.
    + rewrite (IH k c Hl Hn). lia.
Qed.

Lemma char_at_Ok abc d c : char_at abc d = Ok c -> nth_error abc (Z.to_nat d) = Some c.
Proof. unfold char_at. destruct (nth_error _ _); [congruence|discriminate]. Qed.

Lemma map_res_chars abc : forall ds code, map_res (char_at abc) ds = Ok code ->
  Forall (fun c => In c abc) code.
Proof.
  induction ds as [|d ds IH]; cbn [map_res]; intros code H.
  - injection H as <-. constructor.
  - apply bind_Ok in H as (c & E & H). apply bind_Ok in H as (cs & E2 & [= <-]).
    constructor; [eapply nth_error_In, char_at_Ok, E|exact (IH cs E2)].
Qed.

Lemma map_res_decode abc : NoDup abc -> forall ds code,
  map_res (char_at abc) ds = Ok code -> Forall (digit (Z.of_nat (length abc))) ds ->
  map (fun c => index_of c abc) code = ds.
Proof.
  intros Hnd. induction ds as [|d ds IH]; cbn [map_res]; intros code H Hp.
  - injection H as <-. reflexivity.
  - apply bind_Ok in H as (c & E & H). apply bind_Ok in H as (cs & E2 & [= <-]).
    apply Forall_cons_iff in Hp as [Hd Hp]. unfold digit in Hd.
    cbn [map]. rewrite (IH cs E2 Hp), (index_of_nth _ _ _ Hnd (char_at_Ok _ _ _ E)). f_equal. lia.
Qed.

Lemma map_res_total abc : forall ds, Forall (digit (Z.of_nat (length abc))) ds ->
  exists code, map_res (char_at abc) ds = Ok code.
Proof.
  induction 1 as [|d ds Hd Hds [cs IH]]; cbn [map_res]; [eauto|].
  unfold char_at at 1. destruct (nth_error abc (Z.to_nat d)) as [c|] eqn:E.
  - rewrite IH. cbn [bind]. eauto.
  - apply nth_error_None in E. unfold digit in Hd. lia.
Qed.

Lemma alpha_string_Ok abc w n s : alpha_string abc w n = Ok s ->
  exists c0 rest code, abc = c0 :: rest /\ 0 <= n /\ s = rjust w c0 code /\
    map_res (char_at abc) (to_digits (Z.of_nat (length abc)) n) = Ok code.
Proof.
  unfold alpha_string, base_encode. intros H. apply bind_Ok in H as (code & E & H).
  destruct (n <? 0) eqn:En; [discriminate|]. destruct abc as [|c0 rest]; [discriminate|].
  injection H as <-. exists c0, rest, code. splits; auto. lia.
Qed.

Definition alpha_decode (abc : list Z) (s : list Z) : Z :=
  from_digits (Z.of_nat (length abc)) (map (fun c => index_of c abc) s).

Lemma fd_repeat0 b k s : from_digits b (repeat 0 k ++ s) = from_digits b s.
Proof.
  induction k as [|k IH]; cbn [repeat app]; [reflexivity|]. rewrite from_digits_cons, IH. lia.
Qed.

Lemma alpha_string_decode abc w n s :
  NoDup abc -> (2 <= length abc)%nat -> alpha_string abc w n = Ok s -> alpha_decode abc s = n.
Proof.
  intros Hnd Hlen H. apply alpha_string_Ok in H as (c0 & rest & code & -> & Hn & -> & E).
  unfold alpha_decode, rjust.
  rewrite map_app, map_repeat, (map_res_decode _ Hnd _ _ E) by (apply to_digits_digits; lia).
  cbn [index_of]. rewrite Z.eqb_refl, fd_repeat0. apply to_digits_value; lia.
Qed.

Lemma alpha_string_inj abc w w' n n' s :
  NoDup abc -> (2 <= length abc)%nat ->
  alpha_string abc w n = Ok s -> alpha_string abc w' n' = Ok s -> n = n'.
Proof. intros Hnd Hl H H'. apply alpha_string_decode in H, H'; auto. congruence. Qed.

Lemma alpha_string_shape abc w n s : alpha_string abc w n = Ok s ->
  Forall (fun c => In c abc) s /\ w <= Z.of_nat (length s).
Proof.
  intros H. apply alpha_string_Ok in H as (c0 & rest & code & -> & _ & -> & E). unfold rjust. split.
  - apply Forall_app. split; [|exact (map_res_chars _ _ _ E)].
    apply Forall_forall. intros x Hx. apply repeat_spec in Hx as ->. left. reflexivity.
  - rewrite app_length, repeat_length. lia.
Qed.

Lemma alpha_string_total abc w n :
  (2 <= length abc)%nat -> 0 <= n -> exists s, alpha_string abc w n = Ok s.
Proof.
  intros Hl Hn. unfold alpha_string, base_encode.
  destruct (map_res_total abc (to_digits (Z.of_nat (length abc)) n)) as [code ->];
    [apply to_digits_digits; lia|].
  destruct (n <? 0) eqn:En; [lia|]. destruct abc; [cbn in Hl; lia|]. cbn [bind]. eauto.
Qed.

(* the requested min_chars is honoured (randomize_codes raises it to at least 4) *)
Lemma alpha_new_min_chars tpl abc mc rc a :
  alpha_new tpl abc mc rc = Ok a -> mc <= al_min_chars a /\ al_randomize a = rc /\
  (2 <= length (al_alphabet a))%nat.
Proof.
  unfold alpha_new. intros H. apply bind_Ok in H as (_ & _ & H).
  destruct (existsb _ _); [discriminate|]. destruct (_ <=? 1) eqn:E; [discriminate|].
  injection H as <-. cbn [al_min_chars al_randomize al_alphabet]. splits; [destruct rc|..]; lia.
Qed.

Section ValuesP.
  Variables (mask : Z -> Z -> Z) (nbits bpc : Z -> Z).

  Lemma maybe_scramble_inj (r : bool) mb mb' p p' n :
    (if r then scramble mask nbits p mb else Ok p) = Ok n ->
    (if r then scramble mask nbits p' mb' else Ok p') = Ok n -> p = p'.
  Proof. destruct r; [apply scramble_inj|congruence]. Qed.

  Lemma num_value_same_numbers tpl tpl' pid pid' c c' i i' r v :
    In PIndex tpl -> In PIndex tpl' ->
    num_value mask nbits tpl pid c i r = Ok v ->
    num_value mask nbits tpl' pid' c' i' r = Ok v ->
    instantiate tpl pid c i = instantiate tpl' pid' c' i'.
  Proof.
    intros Hi Hi' H H'. apply bind_Ok in H as (p & P & H), H' as (p' & P' & H').
    rewrite (maybe_scramble_inj _ _ _ _ _ _ H H') in P. exact (plain_value_inj _ _ _ _ _ _ _ _ _ Hi Hi' P P').
  Qed.

  Lemma num_value_inj tpl pid pid' c c' i i' r v :
    In PIndex tpl -> length pid = length pid' ->
    num_value mask nbits tpl pid c i r = Ok v ->
    num_value mask nbits tpl pid' c' i' r = Ok v ->
    i = i' /\ (In PContext tpl -> c = c') /\ (In PPid tpl -> pid = pid').
  Proof.
    intros Hi Hl H H'.
    destruct (instantiate_inj tpl _ _ _ _ _ _ Hl (num_value_same_numbers _ _ _ _ _ _ _ _ _ _ Hi Hi H H')).
    auto.
  Qed.

  (* default unique_id generators: equal values only for the same generator and the same index *)
  Lemma pipeline_numeric_pair big big' pid pid' c c' i i' v :
    num_value mask nbits (default_numeric_tpl big) pid c i true = Ok v ->
    num_value mask nbits (default_numeric_tpl big') pid' c' i' true = Ok v ->
    c = c' /\ i = i'.
  Proof.
    intros H H'. eapply app_tail2. rewrite <- !default_instantiate.
    eapply num_value_same_numbers; eauto using default_numeric_has_index.
  Qed.

  Section AlphaPair.
    Variables a a' : alpha.
    Hypothesis Habc : al_alphabet a = al_alphabet a'.
    Hypothesis Hr : al_randomize a = al_randomize a'.
    Hypothesis Hnd : NoDup (al_alphabet a).
    Hypothesis Hlen : (2 <= length (al_alphabet a))%nat.

    Lemma alpha_value_same_numbers tpl tpl' pid pid' c c' i i' s :
      In PIndex tpl -> In PIndex tpl' ->
      alpha_value mask nbits bpc a tpl pid c i = Ok s ->
      alpha_value mask nbits bpc a' tpl' pid' c' i' = Ok s ->
      instantiate tpl pid c i = instantiate tpl' pid' c' i'.
    Proof.
      intros Hi Hi' H H'. unfold alpha_value in H, H'. rewrite <- Habc, <- Hr in H'.
      apply bind_Ok in H as (p & P & H), H' as (p' & P' & H').
      apply bind_Ok in H as (n & S & H), H' as (n' & S' & H').
      rewrite (alpha_string_inj _ _ _ _ _ _ Hnd Hlen H H') in S.
      rewrite (maybe_scramble_inj _ _ _ _ _ _ S S') in P. exact (plain_value_inj _ _ _ _ _ _ _ _ _ Hi Hi' P P').
    Qed.

    Lemma alpha_value_inj tpl pid pid' c c' i i' s :
      In PIndex tpl -> length pid = length pid' ->
      alpha_value mask nbits bpc a tpl pid c i = Ok s ->
      alpha_value mask nbits bpc a' tpl pid' c' i' = Ok s ->
      i = i' /\ (In PContext tpl -> c = c') /\ (In PPid tpl -> pid = pid').
    Proof.
      intros Hi Hl H H'.
      destruct (instantiate_inj tpl _ _ _ _ _ _ Hl (alpha_value_same_numbers _ _ _ _ _ _ _ _ _ Hi Hi H H')).
      auto.
    Qed.

    (* big-id mode default alpha generators: a code in common means same generator, same draw *)
    Lemma pipeline_alpha_pair_big pid pid' c c' i i' s :
      alpha_value mask nbits bpc a (default_alpha_tpl true) pid c i = Ok s ->
      alpha_value mask nbits bpc a' (default_alpha_tpl true) pid' c' i' = Ok s ->
      c = c' /\ i = i'.
    Proof.
      intros H H'. eapply app_tail2. rewrite <- !(default_instantiate true).
      eapply alpha_value_same_numbers; eauto using (default_numeric_has_index true).
    Qed.
  End AlphaPair.

  Lemma alpha_value_charset_len a tpl pid c i s :
    alpha_value mask nbits bpc a tpl pid c i = Ok s ->
    Forall (fun ch => In ch (al_alphabet a)) s /\ al_min_chars a <= Z.of_nat (length s).
  Proof.
    intros H. apply bind_Ok in H as (p & _ & H). apply bind_Ok in H as (n & _ & H).
    exact (alpha_string_shape _ _ _ _ H).
  Qed.

  Lemma rvalue_inj r r' c c' i i' v :
    comparable r r' -> In PIndex (spec_tpl r) ->
    rvalue mask nbits bpc r c i = Ok v -> rvalue mask nbits bpc r' c' i' = Ok v ->
    i = i' /\ (In PContext (spec_tpl r) -> c = c').
  Proof.
    destruct r as [tpl pid rand|tpl pid a], r' as [tpl' pid' rand'|tpl' pid' a']; try contradiction;
      cbn [comparable spec_tpl rvalue]; intros Hcmp Hi H H';
      apply bind_Ok in H as (z & E & H), H' as (z' & E' & H'); injection H as <-; injection H' as ->.
    - destruct Hcmp as (<- & Hl & <-). destruct (num_value_inj _ _ _ _ _ _ _ _ _ Hi Hl E E') as (Hii & Hcc & _).
      exact (conj Hii Hcc).
    - destruct Hcmp as (<- & Hl & Habc & Hr & Hnd & Hlen).
      destruct (alpha_value_inj _ _ Habc Hr Hnd Hlen _ _ _ _ _ _ _ _ Hi Hl E E') as (Hii & Hcc & _).
      exact (conj Hii Hcc).
  Qed.
End ValuesP.

(* generators with pairwise different context numbers, each drawn at pairwise different indexes: if a
   value in common forces the same context number and the same index, all values are distinct *)
Lemma flat_draws_NoDup {G V} (ctx : G -> Z) (idx : G -> list Z) (F : G -> Z -> result V) : forall gens vs,
  NoDup (map ctx gens) -> (forall g, NoDup (idx g)) ->
  (forall g g' i i' v, In g gens -> In g' gens -> F g i = Ok v -> F g' i' = Ok v ->
                       ctx g = ctx g' /\ i = i') ->
  flat_map (fun g => map (F g) (idx g)) gens = map Ok vs -> NoDup vs.
Proof.
  induction gens as [|g gens IH]; cbn [flat_map map]; intros vs Hctx Hidx Hinj He.
  - destruct vs; [constructor|discriminate].
  - symmetry in He. apply map_eq_app in He as (vs1 & vs2 & -> & E1 & E2).
    apply NoDup_cons_iff in Hctx as [Hg Hctx]. apply NoDup_app_intro.
    + apply (NoDup_of_injective_keys (F g) (idx g)); [apply Hidx| |auto].
      intros i i' v _ _ Hv Hv'. apply (Hinj g g i i' v); cbn; auto.
    + apply IH; auto. intros g1 g2 i i' v H1 H2. apply Hinj; cbn; auto.
    + (* a value of g that a later generator g' gives too: g' has the context number of g *)
      intros v H1 H2. apply (in_map Ok) in H1, H2. rewrite E1 in H1. rewrite E2 in H2.
      apply in_map_iff in H1 as (i & Hv & _).
      apply in_flat_map in H2 as (g' & Hg' & H2). apply in_map_iff in H2 as (i' & Hv' & _).
      apply Hg. destruct (Hinj g g' i i' v) as [-> _]; cbn; auto. apply in_map, Hg'.
Qed.

Lemma set_nth_split {A} (a b : A) : forall l n, nth_error l n = Some a ->
  exists l1 l2, l = l1 ++ a :: l2 /\ set_nth n b l = l1 ++ b :: l2.
Proof.
  induction l as [|x l IH]; intros [|n] H; try discriminate; cbn [nth_error set_nth] in *.
  - injection H as ->. exists [], l. auto.
  - destruct (IH n H) as (l1 & l2 & -> & ->). exists (x :: l1), l2. auto.
Qed.

Definition key_ci (k : rspec * Z * Z) : Z * Z := (snd (fst k), snd k).

(* Invariant of the process machine, together with the keys drawn so far: context numbers are below the
   counter and belong to one generator each; a key that was drawn lies below the next index of the
   generator it names; no (context, index) pair was drawn twice. *)
Definition pinv (s : pstate) (log : list (rspec * Z * Z)) : Prop :=
  Forall (fun c => c < ps_counter s) (map lg_ctx (ps_gens s)) /\
  NoDup (map lg_ctx (ps_gens s)) /\
  (forall r c i, In (r, c, i) log -> exists nx, In (mkLgen r c nx) (ps_gens s) /\ i < nx) /\
  NoDup (map key_ci log).

Lemma pinv_init c0 : pinv (p_init c0) [].
Proof. repeat constructor. intros r c i []. Qed.

Lemma pinv_burn s log n : 0 <= n ->
  pinv s log -> pinv (mkPstate (ps_counter s + n) (ps_gens s)) log.
Proof.
  intros Hn (I1 & I2 & I3 & I4). split; [|auto].
  eapply Forall_impl; [|exact I1]. cbn [ps_counter]. intros; lia.
Qed.

Lemma pinv_new s log r start :
  pinv s log -> pinv (mkPstate (ps_counter s + 1) (ps_gens s ++ [mkLgen r (ps_counter s) start])) log.
Proof.
  intros (I1 & I2 & I3 & I4). unfold pinv. cbn [ps_gens ps_counter]. rewrite map_app. cbn [map lg_ctx]. splits; auto.
  - apply Forall_app. split; [eapply Forall_impl; [|exact I1]; cbn; intros; lia|].
    repeat constructor. lia.
  - apply NoDup_app_intro; [exact I2|repeat constructor; intros []|].
    intros c Hc [<-|[]]. rewrite Forall_forall in I1. specialize (I1 _ Hc). lia.
  - intros r0 c i Hin. destruct (I3 r0 c i Hin) as (nx & Hnx & Hi). exists nx. auto using in_or_app.
Qed.

Lemma pinv_draw s log g n lg :
  pinv s log -> nth_error (ps_gens s) g = Some lg ->
  pinv (mkPstate (ps_counter s)
                 (set_nth g (mkLgen (lg_spec lg) (lg_ctx lg) (lg_next lg + Z.of_nat n)) (ps_gens s)))
       (log ++ map (fun i => (lg_spec lg, lg_ctx lg, i)) (Zseq (lg_next lg) n)).
Proof.
  intros (I1 & I2 & I3 & I4) Hn. destruct lg as [r c nx]. cbn [lg_spec lg_ctx lg_next].
  destruct (set_nth_split _ (mkLgen r c (nx + Z.of_nat n)) _ _ Hn) as (l1 & l2 & E & ->). rewrite E in *.
  (* the generator with context number c is the one drawn from *)
  assert (Hlg : forall r0 nx0, In (mkLgen r0 c nx0) (l1 ++ mkLgen r c nx :: l2) -> nx0 = nx).
  { intros r0 nx0 H0.
    apply (NoDup_map_In_inj lg_ctx _ _ (mkLgen r c nx) I2) in H0; [congruence|apply in_elt|reflexivity]. }
  unfold pinv. cbn [ps_gens ps_counter]. rewrite !map_app in I1, I2 |- *. splits; [exact I1|exact I2| |].
  - intros r0 c0 i Hin. apply in_app_or in Hin as [Hin|Hin].
    + destruct (I3 _ _ _ Hin) as (nx0 & H0 & Hi). apply in_elt_inv in H0 as [[= -> -> ->]|H0].
      * exists (nx + Z.of_nat n). split; [apply in_elt|lia].
      * exists nx0. split; [|exact Hi].
        apply in_or_app. apply in_app_or in H0 as [H0|H0]; [left|right; right]; exact H0.
    + apply in_map_iff in Hin as (j & [= <- <- <-] & Hj). apply Zseq_In in Hj.
      exists (nx + Z.of_nat n). split; [apply in_elt|lia].
  - rewrite map_app, map_map. apply NoDup_app_intro; [exact I4| |].
    + apply Injective_map_NoDup; [|apply Zseq_NoDup]. intros x y [=]. assumption.
    + intros [c0 i] Hold Hnew. apply in_map_iff in Hnew as (j & [= <- <-] & Hj). apply Zseq_In in Hj.
      apply in_map_iff in Hold as ([[r0 c0] i0] & [= -> ->] & Hold).
      destruct (I3 _ _ _ Hold) as (nx0 & H0 & Hi). rewrite (Hlg _ _ H0) in Hi. lia.
Qed.

Lemma pinv_step s log o :
  pinv s log -> pinv (fst (p_step s o)) (log ++ snd (p_step s o)).
Proof.
  intros Hinv. destruct o as [[[r start]|e]|g n|n|]; cbn [p_step fst snd]; rewrite ?app_nil_r.
  - apply pinv_new, Hinv.
  - apply pinv_burn; [lia|exact Hinv].
  - destruct (nth_error (ps_gens s) g) as [lg|] eqn:Hn; cbn [fst snd].
    + apply pinv_draw; assumption.
    + rewrite app_nil_r. exact Hinv.
  - apply pinv_burn; [lia|exact Hinv].
  - exact Hinv.
Qed.

Lemma pinv_run : forall ops s log,
  pinv s log -> pinv (fst (p_run s ops)) (log ++ snd (p_run s ops)).
Proof.
  induction ops as [|o ops IH]; intros s log Hinv; cbn [p_run].
  - cbn [fst snd]. rewrite app_nil_r. assumption.
  - apply (pinv_step s log o) in Hinv. destruct (p_step s o) as [s1 ks]. cbn [fst snd] in Hinv.
    apply IH in Hinv. destruct (p_run s1 ops) as [s2 ks']. cbn [fst snd] in *. rewrite app_assoc. exact Hinv.
Qed.

Lemma process_pinv c0 ops : pinv (fst (p_run (p_init c0) ops)) (process_keys c0 ops).
Proof. apply (pinv_run ops (p_init c0) [] (pinv_init c0)). Qed.

Lemma process_keys_NoDup c0 ops : NoDup (map key_ci (process_keys c0 ops)).
Proof. apply (process_pinv c0 ops). Qed.

Lemma process_keys_NoDup_full c0 ops : NoDup (process_keys c0 ops).
Proof. eapply NoDup_map_inv, process_keys_NoDup. Qed.

(* a context number belongs to one generator *)
Lemma process_keys_spec_fun c0 ops r r' c i i' :
  In (r, c, i) (process_keys c0 ops) -> In (r', c, i') (process_keys c0 ops) -> r = r'.
Proof.
  destruct (process_pinv c0 ops) as (_ & I2 & I3 & _). intros H H'.
  apply I3 in H as (nx & H & _), H' as (nx' & H' & _).
  apply (NoDup_map_In_inj lg_ctx _ _ _ I2 H) in H'; [congruence|reflexivity].
Qed.

Section MachineP.
  Variables (mask : Z -> Z -> Z) (nbits bpc : Z -> Z).

  Lemma process_values_NoDup c0 ops vs :
    (forall k k' v, In k (process_keys c0 ops) -> In k' (process_keys c0 ops) ->
       key_value mask nbits bpc k = Ok v -> key_value mask nbits bpc k' = Ok v -> key_ci k = key_ci k') ->
    process_values mask nbits bpc c0 ops = map Ok vs -> NoDup vs.
  Proof.
    intros Hinj. apply NoDup_of_injective_keys; [apply process_keys_NoDup_full|].
    intros k k' v Hk Hk' Hv Hv'. apply (NoDup_map_In_inj key_ci _ _ _ (process_keys_NoDup c0 ops)); eauto.
  Qed.

  (* all default numeric generators (small-id and big-id mode mixed, any pids): all values of the process
     are pairwise distinct — no hypothesis about context numbers: the machine allocates them *)
  Lemma process_default_numeric_NoDup c0 ops vs :
    (forall r c i, In (r, c, i) (process_keys c0 ops) ->
       exists big pid, r = RNum (default_numeric_tpl big) pid true) ->
    process_values mask nbits bpc c0 ops = map Ok vs -> NoDup vs.
  Proof.
    intros Hdef. apply process_values_NoDup. intros [[r c] i] [[r' c'] i'] v Hx Hy Hv Hv'.
    destruct (Hdef _ _ _ Hx) as (big & pid & ->), (Hdef _ _ _ Hy) as (big' & pid' & ->).
    apply bind_Ok in Hv as (z & E & [= <-]), Hv' as (z' & E' & [= ->]).
    destruct (pipeline_numeric_pair _ _ _ _ _ _ _ _ _ _ _ E E') as [<- <-]. reflexivity.
  Qed.

  (* BIG-ID-MODE default alpha generators over one duplicate-free alphabet / randomize_codes flag (any
     min_chars, any pids): all codes of the process are pairwise distinct — again without a hypothesis
     about context numbers *)
  Lemma process_default_alpha_big_NoDup c0 ops abc rc vs :
    NoDup abc -> (2 <= length abc)%nat ->
    (forall r c i, In (r, c, i) (process_keys c0 ops) ->
       exists pid a, r = RAlpha (default_alpha_tpl true) pid a /\ al_alphabet a = abc /\ al_randomize a = rc) ->
    process_values mask nbits bpc c0 ops = map Ok vs -> NoDup vs.
  Proof.
    intros Hnd Hlen Hdef. apply process_values_NoDup. intros [[r c] i] [[r' c'] i'] v Hx Hy Hv Hv'.
    destruct (Hdef _ _ _ Hx) as (pid & a & -> & <- & <-), (Hdef _ _ _ Hy) as (pid' & a' & -> & Ha' & Hr').
    apply bind_Ok in Hv as (z & E & [= <-]), Hv' as (z' & E' & [= ->]).
    destruct (pipeline_alpha_pair_big _ _ _ _ _ (eq_sym Ha') (eq_sym Hr') Hnd Hlen _ _ _ _ _ _ _ E E') as [<- <-].
    reflexivity.
  Qed.

  (* two draws of a process that land on the same generator (template with or without `context`) give the
     same value only if they are the same draw; programs over names compile to such processes *)
  Lemma process_one_generator_distinct c0 ops p q r c i i' v :
    nth_error (process_keys c0 ops) p = Some (r, c, i) ->
    nth_error (process_keys c0 ops) q = Some (r, c, i') ->
    comparable r r -> In PIndex (spec_tpl r) ->
    rvalue mask nbits bpc r c i = Ok v -> rvalue mask nbits bpc r c i' = Ok v -> p = q.
  Proof.
    intros Hp Hq Hcmp Hi Hv Hv'. destruct (rvalue_inj _ _ _ _ _ _ _ _ _ _ Hcmp Hi Hv Hv') as [<- _].
    apply (proj1 (NoDup_nth_error _) (process_keys_NoDup_full c0 ops)); [|congruence].
    apply nth_error_Some. rewrite Hp. discriminate.
  Qed.
End MachineP.

Lemma st_lookup_map (f : nat -> nat) st nm :
  st_lookup (map (fun e => (fst e, f (snd e))) st) nm = option_map f (st_lookup st nm).
Proof.
  induction st as [|e r IH]; [reflexivity|].
  cbn [map st_lookup fst snd]. destruct (Nat.eqb (fst e) nm); [reflexivity|exact IH].
Qed.

Lemma st_lookup_In st nm g : st_lookup st nm = Some g -> In g (map snd st).
Proof.
  induction st as [|e r IH]; cbn [st_lookup map]; [discriminate|].
  destruct (Nat.eqb (fst e) nm); [intros [= H]; left; exact H|right; auto].
Qed.

Lemma nth_gen_position l x : In x l -> nth (gen_position x l) l O = x.
Proof.
  induction l as [|y r IH]; [intros []|]. cbn [gen_position].
  destruct (Nat.eqb y x) eqn:E; [intros _; apply Nat.eqb_eq, E|].
  intros [->|H]; [rewrite Nat.eqb_refl in E; discriminate|exact (IH H)].
Qed.

(* A continuation keeps the sharing: two names denote the same generator afterwards exactly when they did
   before; and what they denote afterwards is a generator made by the continuation (its number lies above
   every generator that existed before: a new constructor call, a new context number). *)
Lemma names_continue_keeps_sharing st a b ga gb :
  st_lookup (ns_store st) a = Some ga -> st_lookup (ns_store st) b = Some gb ->
  exists ga' gb',
    st_lookup (ns_store (fst (n_continue st))) a = Some ga' /\
    st_lookup (ns_store (fst (n_continue st))) b = Some gb' /\
    (ga = gb <-> ga' = gb') /\
    (length (ns_made st) <= ga')%nat /\ (length (ns_made st) <= gb')%nat.
Proof.
  intros Ha Hb. unfold n_continue. cbn [fst ns_store].
  rewrite !(st_lookup_map (fun g => (length (ns_made st) + gen_position g (reachable (ns_store st)))%nat)).
  rewrite Ha, Hb. cbn [option_map]. do 2 eexists. splits; [reflexivity..| |lia|lia].
  split; [intros ->; reflexivity|]. intros H. apply Nat.add_cancel_l in H.
  apply st_lookup_In, (nodup_In Nat.eq_dec) in Ha, Hb.
  rewrite <- (nth_gen_position _ _ Ha), <- (nth_gen_position _ _ Hb). unfold reachable in H. rewrite H. reflexivity.
Qed.

Definition valid_part (p : part) : Prop :=
  match p with PBad => False | PNum n => 0 <= n | _ => True end.

(* the characters of a canonical spelling: digits and lower-case letters *)
Definition plain_char (c : Z) : Prop :=
  ((48 <=? c) && (c <=? 57)) || ((97 <=? c) && (c <=? 122)) = true.

Lemma strip_plain s : Forall plain_char s -> strip s = s.
Proof.
  assert (L : forall t, Forall plain_char t -> lstrip t = t).
  { intros [|c r] H; [reflexivity|]. apply Forall_inv in H. cbn [lstrip].
    replace (is_space c) with false; [reflexivity|]. unfold plain_char, is_space in *. lia. }
  intros H. unfold strip. rewrite (L s H), L by (apply Forall_rev, H). apply rev_involutive.
Qed.

Lemma lower_plain s : Forall plain_char s -> map lower_char s = s.
Proof.
  intros H. rewrite <- (map_id s) at 2. apply map_ext_Forall. eapply Forall_impl; [|exact H].
  unfold plain_char, lower_char. intros c Hc. destruct ((65 <=? c) && (c <=? 90)) eqn:E; lia.
Qed.

Lemma digit_chars_are_digits ds :
  Forall (digit 10) ds -> forallb is_digit (map (fun d => d + 48) ds) = true.
Proof.
  induction 1 as [|d r Hd _ IH]; cbn [map forallb]; [reflexivity|]. rewrite IH.
  unfold digit in Hd. unfold is_digit. lia.
Qed.

Lemma dec_value_digit_chars ds : dec_value (map (fun d => d + 48) ds) = from_digits 10 ds.
Proof.
  unfold dec_value. rewrite map_map. f_equal. rewrite <- (map_id ds) at 2. apply map_ext. intros; lia.
Qed.

Lemma print_part_plain p : valid_part p -> Forall plain_char (print_part p).
Proof.
  destruct p as [| | |n|]; cbn [valid_part print_part]; intros Hv; try contradiction.
  1-3: repeat constructor.
  apply Forall_map. eapply Forall_impl; [|apply to_digits_digits; lia].
  unfold digit, plain_char. intros; lia.
Qed.

Lemma classify_print_part p : valid_part p -> classify (print_part p) = p.
Proof.
  intros Hv. pose proof (print_part_plain p Hv) as Hp.
  unfold classify. rewrite (strip_plain _ Hp), (lower_plain _ Hp).
  destruct p as [| | |n|]; cbn [valid_part print_part] in *; try contradiction; try reflexivity.
  pose proof (to_digits_digits 10 n ltac:(lia) Hv) as Hd. pose proof (to_digits_canon 10 n ltac:(lia) Hv) as Hc.
  rewrite (digit_chars_are_digits _ Hd), dec_value_digit_chars, to_digits_value by lia.
  (* the first character is a digit, so the string is not "pid" *)
  destruct (to_digits 10 n) as [|d r]; [contradiction|]. apply Forall_inv in Hd. unfold digit in Hd.
  cbn [map list_eqb s_pid]. destruct (d + 48 =? 112) eqn:E1; [lia|]. reflexivity.
Qed.

Lemma print_ascii tpl : Forall valid_part tpl ->
  forallb (fun c => (0 <=? c) && (c <? 128)) (print_template tpl) = true.
Proof.
  intros Hv. apply forallb_forall, Forall_forall. rewrite print_template_join.
  apply Forall_join; [reflexivity|]. apply Forall_map. eapply Forall_impl; [|exact Hv].
  intros p Hp. eapply Forall_impl; [|apply print_part_plain, Hp]. unfold plain_char. intros; lia.
Qed.

(* every template over pid / context / index / non-negative literals has a spelling that the
   constructor's parser reads back as exactly that template *)
Lemma parse_print tpl : tpl <> [] -> Forall valid_part tpl ->
  parse_template (print_template tpl) = Ok tpl.
Proof.
  intros Hne Hv. unfold parse_template. rewrite (print_ascii tpl Hv), print_template_join, split_on_join, map_map.
  - f_equal. rewrite <- (map_id tpl) at 2. apply map_ext_Forall.
    eapply Forall_impl; [|exact Hv]. apply classify_print_part.
  - destruct tpl; [contradiction|discriminate].
  - apply Forall_map. eapply Forall_impl; [|exact Hv]. intros p Hp Hin.
    pose proof (print_part_plain p Hp) as H. rewrite Forall_forall in H. specialize (H 44 Hin).
    unfold plain_char in H. lia.
Qed.

(* what the parser can return: a literal is always a non-negative number *)
Lemma is_digit_value s : forallb is_digit s = true -> 0 <= dec_value s.
Proof.
  intros H. apply fd_bounds; [lia|]. apply Forall_map, Forall_forall. intros c Hc.
  rewrite forallb_forall in H. specialize (H c Hc). unfold is_digit in H. unfold digit. lia.
Qed.

Lemma classify_literal chunk n : classify chunk = PNum n -> 0 <= n.
Proof.
  unfold classify. set (p := map lower_char (strip chunk)).
  destruct (list_eqb Z.eqb p s_pid); [discriminate|].
  destruct (negb _ && forallb is_digit p) eqn:E.
  - intros [= <-]. apply is_digit_value. apply andb_true_iff in E. apply E.
  - destruct (list_eqb Z.eqb p s_index); [discriminate|].
    destruct (list_eqb Z.eqb p s_context); discriminate.
Qed.

Definition literal_ok (p : part) : Prop := match p with PNum n => 0 <= n | _ => True end.

Lemma parse_literals_nonneg s tpl : parse_template s = Ok tpl -> Forall literal_ok tpl /\ tpl <> [].
Proof.
  unfold parse_template. destruct (forallb _ s); [|discriminate]. intros [= <-]. split.
  - apply Forall_map, Forall_forall. intros chunk _.
    destruct (classify chunk) eqn:E; cbn [literal_ok]; auto. eapply classify_literal, E.
  - intros H. apply map_eq_nil in H. exact (split_on_nonempty _ _ H).
Qed.

Lemma instantiate_nonneg tpl pid c i :
  Forall literal_ok tpl -> nonneg pid -> 0 <= c -> 0 <= i -> nonneg (instantiate tpl pid c i).
Proof.
  intros Ht Hp Hc Hi. apply Forall_flat_map. eapply Forall_impl; [|exact Ht].
  intros [| | |n|] Hl; cbn [part_nums]; repeat constructor; auto.
Qed.

Lemma encode_nonneg l : nonneg l -> 0 <= encode l.
Proof. intros Hl. apply (fd_bounds 10); [lia|]. apply join9_digits, map_oct_ochunk, Hl. Qed.

Lemma plain_value_total tpl pid c i :
  Forall literal_ok tpl -> nonneg pid -> 0 <= c -> 0 <= i ->
  exists v, plain_value tpl pid c i = Ok v /\ 0 <= v.
Proof.
  intros Ht Hp Hc Hi. pose proof (instantiate_nonneg tpl pid c i Ht Hp Hc Hi) as Hn.
  eexists. split; [apply plain_value_Ok; split; [exact Hn|reflexivity]|apply encode_nonneg, Hn].
Qed.

(* a numeric generator over a template whose literals are non-negative (parse_literals_nonneg: every
   accepted template string), with non-negative pid numbers, never fails on a draw while the number stays
   below the 1000-bit limit of scramble_number *)
Lemma num_value_total mask nbits tpl pid c i r :
  Forall literal_ok tpl -> nonneg pid -> 0 <= c -> 0 <= i ->
  (forall x, nbits x < 1000) ->
  exists v, num_value mask nbits tpl pid c i r = Ok v.
Proof.
  intros Hl Hp Hc Hi Hnb. destruct (plain_value_total tpl pid c i Hl Hp Hc Hi) as (v & Hv & Hv0).
  unfold num_value. rewrite Hv. cbn [bind]. destruct r; [|eauto].
  apply scramble_total; [exact Hv0|lia|intros _; apply Hnb].
Qed.
