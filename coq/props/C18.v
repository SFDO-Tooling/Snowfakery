(* C18 — fake contact data is safe: reserved e-mail domains, bounded unique usernames,
   spelling-insensitive provider names.
   Model: theories/Fake.v (snowfakery/fakedata/fake_data_generator.py).
   Statements here; proofs live in proofs/FakeP.v (corollaries of its lemmas are derived on the spot).

   Strings are lists of code points.  Everything Faker returns is a universally quantified
   argument; what the theorems need to know about it is a named hypothesis in the statement
   (the harness checks these facts on Faker's real data for every locale).                  *)
From Coq Require Import ZArith List Bool String.
From SFV Require Import Base Fake.
From SFV.P Require Import FakeP.
Import ListNotations. Open Scope Z_scope.

(* `fake: email`, both branches: whatever first/last names are in local_vars (any code points,
   present or not), whichever template and year are drawn — the result is
   <no "@"> @ <reserved example domain>, provided Faker's safe_domain_name() is reserved and
   Faker's ascii_safe_email() is such an address. *)
Theorem C18_email_reserved_domain :
  forall (dom ase : str),
    reserved dom = true ->                 (* f.safe_domain_name() *)
    safe_addr ase = true ->                (* f.ascii_safe_email() *)
    forall matching lv tpl year e,
      email_of matching lv tpl year dom ase = Ok e ->
      (exists local d, e = local ++ [AT] ++ d /\ no_at local = true /\ reserved d = true)
      /\ safe_addr e = true /\ count_at e = 1%nat.
Proof.
  intros dom ase D A m lv tpl year e H. apply (email_of_safe dom ase m lv tpl year e D A) in H.
  split; [apply safe_addr_shape, H | split; [exact H | apply safe_addr_one_at, H]].
Qed.
Print Assumptions C18_email_reserved_domain.

(* … and a value is always produced (the only possible failure, an index into the year text,
   cannot happen for four-digit years) *)
Theorem C18_email_total :
  forall (dom ase : str) matching lv tpl year,
    0 <= tpl < 60 -> 1000 <= year <= 9999 ->
    exists e, email_of matching lv tpl year dom ase = Ok e.
Proof.
  intros dom ase m lv tpl year Ht Hy. unfold email_of. destruct (names_for m lv) as [[f l]|]; eauto.
  destruct (email_matching_filled f l tpl year dom Ht Hy) as (fp & sep & yp & fpart & ypart & E & _). eauto.
Qed.
Print Assumptions C18_email_total.

(* both names ASCII (with at least one letter or digit each): the local part is the cleaned
   first name (padded to two characters with "_"), its initial or its first two characters;
   one of the five separators; the cleaned last name; 0, 1, 2 or 4 digits of the year *)
Theorem C18_email_from_names :
  forall lv fr lr,
    assoc "firstname" lv = Some fr -> assoc "lastname" lv = Some lr ->
    isascii fr = true -> isascii lr = true ->
    filter isalnum fr <> [] -> filter isalnum lr <> [] ->
    forall tpl year dom ase, 0 <= tpl < 60 -> 1000 <= year <= 9999 ->
    exists fp sep yp fpart ypart,
      email_of true lv tpl year dom ase
        = Ok (fpart ++ sep ++ filter isalnum lr ++ ypart ++ [AT] ++ dom) /\
      fpat_apply fp (ljust2 (filter isalnum fr)) = Ok fpart /\
      In sep seps /\
      ypat_apply yp (dec year) = Ok ypart.
Proof.
  intros lv fr lr H1 H2 A1 A2 N1 N2 tpl year dom ase. unfold email_of.
  rewrite (names_for_intro lv fr lr) by assumption. apply email_matching_filled.
Qed.
Print Assumptions C18_email_from_names.

(* a non-ASCII first name (likewise: missing, empty after cleaning, or matching=False)
   never reaches the address: Faker's ascii_safe_email() is returned unchanged *)
Theorem C18_email_non_ascii_falls_back :
  forall matching lv fr tpl year dom ase,
    assoc "firstname" lv = Some fr -> isascii fr = false ->
    email_of matching lv tpl year dom ase = Ok ase.
Proof. intros. apply email_fallback. eapply names_for_nonascii; eauto. Qed.
Print Assumptions C18_email_non_ascii_falls_back.

(* `fake: username`: at most 80 characters, exactly one "@", ends in "@" ++ host *)
Theorem C18_username_shape :
  forall (host uuid ff fl : str),
    (length host <= 79)%nat -> no_at host = true ->       (* f.hostname() *)
    no_at uuid = true ->                                   (* f.uuid4() *)
    no_at ff = true -> no_at fl = true ->                  (* f.first_name(), f.last_name() *)
    forall matching lv,
      (length (user_name_of matching lv host ff fl uuid) <= 80)%nat /\
      count_at (user_name_of matching lv host ff fl uuid) = 1%nat /\
      exists np, user_name_of matching lv host ff fl uuid = np ++ [AT] ++ host /\ no_at np = true.
Proof. exact username_shape. Qed.
Print Assumptions C18_username_shape.

(* Uniqueness.  The full statement "uuid1 <> uuid2 -> user_name … uuid1 <> user_name … uuid2"
   was false before the repair of finding C18-K1 (the truncation to 80 characters cut the uuid,
   down to nothing: C18_ex_username_k1_regression below is the old counterexample).  The
   repaired code cuts the names first and keeps at least 16 characters of the uuid.  Proved:
   (1) any two usernames, of any two rows, in which names and uuid fit completely
       (|first| + 1 + |last| + 1 + 36 <= 79 - |host|) differ when the uuids do; *)
Theorem C18_username_unique_partial :
  forall m1 lv1 host1 ff1 fl1 uuid1 m2 lv2 host2 ff2 fl2 uuid2,
    no_at ff1 = true -> no_at fl1 = true -> no_at uuid1 = true ->
    no_at ff2 = true -> no_at fl2 = true -> no_at uuid2 = true ->
    length uuid1 = 36%nat -> length uuid2 = 36%nat ->
    (length (names_of m1 lv1 ff1 fl1) + 37 <= 79 - length host1)%nat ->
    (length (names_of m2 lv2 ff2 fl2) + 37 <= 79 - length host2)%nat ->
    uuid1 <> uuid2 ->
    user_name_of m1 lv1 host1 ff1 fl1 uuid1 <> user_name_of m2 lv2 host2 ff2 fl2 uuid2.
Proof. exact username_unique_partial. Qed.
Print Assumptions C18_username_unique_partial.

(* (2) for one row (same names, same host), whatever the lengths of the names: if the host name
   has at most 62 characters, the usernames differ as soon as the first 16 characters of the
   uuids differ.  (What is still missing from the full statement: uuids that agree on their
   first 16 characters and names too long for the rest — C18_ex_username_residue.) *)
Theorem C18_username_unique_prefix :
  forall m lv host ff fl uuid1 uuid2,
    (length host <= 62)%nat ->
    firstn 16 uuid1 <> firstn 16 uuid2 ->
    user_name_of m lv host ff fl uuid1 <> user_name_of m lv host ff fl uuid2.
Proof. exact username_unique_prefix. Qed.
Print Assumptions C18_username_unique_prefix.

(* Name lookup.  [fa]/[sa] = attribute names of the Faker object / of FakeNames that
   obj_to_func_list keeps, [val] = the object each attribute is bound to.  Two spellings with
   the same canonical form (lower case, underscores removed) that are both found denote the
   same object — provided neither attribute list binds two different objects to one canonical
   form, which the harness evaluates (Fake.hyps_hold) on the real lists of every locale.
   (Before the repair of finding C18-K2 a third condition was needed, false for ko_KR.) *)
Theorem C18_lookup_spelling_invariant :
  forall (fa sa : list string) (V : Type) (val : prov -> V),
    (forall n1 n2, In n1 fa -> In n2 fa -> canon n1 = canon n2 -> val (Fk, n1) = val (Fk, n2)) ->
    (forall n1 n2, In n1 sa -> In n2 sa -> canon n1 = canon n2 -> val (Sf, n1) = val (Sf, n2)) ->
    forall q1 q2 p1 p2,
      canon q1 = canon q2 ->
      lookup (build fa sa) q1 = Some p1 -> lookup (build fa sa) q2 = Some p2 ->
      val p1 = val p2.
Proof.
  intros fa sa V val HF HS q1 q2 [s1 n1] [s2 n2] C H1 H2.
  destruct (lookup_same_provider fa sa _ _ _ _ _ _ C H1 H2) as (<- & Cn & I1 & I2). destruct s1; auto.
Qed.
Print Assumptions C18_lookup_spelling_invariant.

(* the decidable form of those conditions, as evaluated in the correspondence check *)
Theorem C18_lookup_spelling_invariant_checked :
  forall fa sa sigs, hyps_hold fa sa sigs = true ->
  forall q1 q2 p1 p2, canon q1 = canon q2 ->
    lookup (build fa sa) q1 = Some p1 -> lookup (build fa sa) q2 = Some p2 ->
    sig_of sigs (Some p1) = sig_of sigs (Some p2).
Proof.
  intros fa sa sigs [H1 H2]%andb_true_iff.
  exact (C18_lookup_spelling_invariant fa sa _ (fun p => sig_of sigs (Some p)) (consistentb_sound _ Fk fa H1) (consistentb_sound _ Sf sa H2)).
Qed.
Print Assumptions C18_lookup_spelling_invariant_checked.

(* Snowfakery's names win over Faker's (no hypothesis): a query that has the canonical form of
   a FakeNames attribute and is accepted at all is answered by FakeNames *)
Theorem C18_snowfakery_names_win :
  forall (fa sa : list string) q n p,
    In n sa -> canon q = canon n -> lookup (build fa sa) q = Some p ->
    exists n', p = (Sf, n') /\ In n' sa /\ canon n' = canon n.
Proof.
  intros fa sa q n p Hn C H. apply lookup_cases in H as (n' & C' & [[-> I]|(_ & _ & N)]).
  - exists n'. repeat split; auto. congruence.
  - destruct N. rewrite C. apply in_map, Hn.
Qed.
Print Assumptions C18_snowfakery_names_win.

(* which spellings are accepted at all: case variants with all or none of the underscores
   (a spelling with only some of them, e.g. datetime_between, is rejected with an error —
   it denotes nothing rather than something else) *)
Theorem C18_lookup_found :
  forall (fa sa : list string) q n,
    In n fa \/ In n sa -> (lower q = lower n \/ lower q = canon n) ->
    lookup (build fa sa) q <> None.
Proof.
  intros fa sa q n Hn K E. apply (assoc_None _ _ E). unfold build. rewrite !map_app, !in_app_iff.
  destruct Hn as [Hn|Hn], K as [K|K]; rewrite K; auto 6 using layer_key.
Qed.
Print Assumptions C18_lookup_found.

(* Row level: the e-mail / username steps of the row interpreter inherit the guarantees from
   the Faker values they consume, and every `fake:` result is recorded under the canonical
   name (which is how any spelling of first_name / last_name reaches the later e-mail). *)
Theorem C18_row_email_safe :
  forall this_year matching s e s',
    (forall v, In ("safe_domain_name"%string, v) (s_flog s) -> reserved v = true) ->
    (forall v, In ("ascii_safe_email"%string, v) (s_flog s) -> safe_addr v = true) ->
    fake_email this_year matching s = Ok (e, s') -> safe_addr e = true /\ count_at e = 1%nat.
Proof. exact fake_email_safe. Qed.
Print Assumptions C18_row_email_safe.

Theorem C18_row_username_shape :
  forall matching s u s',
    (forall m v, In (m, v) (s_flog s) -> no_at v = true) ->
    (forall v, In ("hostname"%string, v) (s_flog s) -> (length v <= 79)%nat) ->
    fake_user_name matching s = Ok (u, s') -> (length u <= 80)%nat /\ count_at u = 1%nat.
Proof. exact fake_user_name_shape. Qed.
Print Assumptions C18_row_username_shape.

Theorem C18_row_result_recorded :
  forall tbl ni this_year q matching s v s',
    fake_step tbl ni this_year q matching s = Ok (v, s') -> assoc (canon q) (s_lv s') = Some v.
Proof.
  intros * H. rewrite (fake_step_lv _ _ _ _ _ _ _ _ H). cbn [assoc]. rewrite String.eqb_refl. reflexivity.
Qed.
Print Assumptions C18_row_result_recorded.

(* A nested object or friend ([OPush] … [OPop]) starts with empty local_vars and cannot change
   those of the enclosing template: the fields after it are evaluated with exactly the
   local_vars from before it (only the Faker log and the random draws advance). *)
Theorem C18_nested_context_isolated :
  forall tbl ni this_year inner rest stack s,
    run_ops tbl ni this_year (OPush :: fake_ops inner ++ OPop :: rest) stack s
    = (do '(vs, s1) <- run_fakes tbl ni this_year inner (mkSt [] (s_flog s) (s_draws s));
       do ws <- run_ops tbl ni this_year rest stack (mkSt (s_lv s) (s_flog s1) (s_draws s1));
       Ok (vs ++ ws)).
Proof. intros. cbn [run_ops]. rewrite run_ops_fakes. reflexivity. Qed.
Print Assumptions C18_nested_context_isolated.

(* Whatever way a recipe asks for a fake value — block `fake: X`, dotted `fake.X:`, formula
   `${{fake.X}}` / `${{fake.X()}}` (EvaluationNamespace.fake, StructuredValue.render,
   FakerTemplateLibrary.__getattr__ + StringGenerator; dialect 2 or 3) — it is one [fake_step];
   the harness runs every one of these forms for every spelling and compares with this step.
   The step leaves local_vars alone except for ONE new binding under the canonical form of the
   spelling used. *)
Theorem C18_row_step_remembers_canonical :
  forall tbl ni this_year q matching s v s',
    fake_step tbl ni this_year q matching s = Ok (v, s') -> s_lv s' = (canon q, v) :: s_lv s.
Proof. exact fake_step_lv. Qed.
Print Assumptions C18_row_step_remembers_canonical.

(* first and last name asked for in ANY spellings q1, q2 (all they share is the canonical form),
   followed by any fakes that are not names: both are what the e-mail / username will see *)
Theorem C18_row_names_reach_contact :
  forall tbl ni y q1 m1 q2 m2 mid s v1 s1 v2 s2 vs s3,
    canon q1 = "firstname"%string -> canon q2 = "lastname"%string ->
    (forall q m, In (q, m) mid -> canon q <> "firstname"%string /\ canon q <> "lastname"%string) ->
    fake_step tbl ni y q1 m1 s = Ok (v1, s1) ->
    fake_step tbl ni y q2 m2 s1 = Ok (v2, s2) ->
    run_fakes tbl ni y mid s2 = Ok (vs, s3) ->
    assoc "firstname" (s_lv s3) = Some v1 /\ assoc "lastname" (s_lv s3) = Some v2.
Proof. exact row_names_reach_contact. Qed.
Print Assumptions C18_row_names_reach_contact.

(* ... and when both are ASCII with a letter or digit each, the e-mail of that row IS one of the
   templates filled with the cleaned names (never Faker's ascii_safe_email of random names) *)
Theorem C18_row_email_from_names_any_spelling :
  forall tbl ni y q1 m1 q2 m2 mid s v1 s1 v2 s2 vs s3 e s4,
    canon q1 = "firstname"%string -> canon q2 = "lastname"%string ->
    (forall q m, In (q, m) mid -> canon q <> "firstname"%string /\ canon q <> "lastname"%string) ->
    fake_step tbl ni y q1 m1 s = Ok (v1, s1) ->
    fake_step tbl ni y q2 m2 s1 = Ok (v2, s2) ->
    run_fakes tbl ni y mid s2 = Ok (vs, s3) ->
    isascii v1 = true -> isascii v2 = true ->
    filter isalnum v1 <> [] -> filter isalnum v2 <> [] ->
    fake_email y true s3 = Ok (e, s4) ->
    exists t yy dom, 0 <= t < n_templates /\ 0 <= yy < n_years /\
      In ("safe_domain_name"%string, dom) (s_flog s3) /\
      email_matching (filter isalnum v1) (filter isalnum v2) t (y - 80 + yy) dom = Ok e.
Proof.
  intros * C1 C2 HN E1 E2 R A1 A2 N1 N2 H. apply fake_email_inv in H as [_ H].
  destruct (row_names_reach_contact _ _ _ _ _ _ _ _ _ _ _ _ _ _ _ C1 C2 HN E1 E2 R) as [F L].
  rewrite (names_for_intro _ _ _ F L A1 A2 N1 N2) in H. exact H.
Qed.
Print Assumptions C18_row_email_from_names_any_spelling.

(* ---- non-vacuity: concrete instances of the hypotheses ---- *)
Open Scope string_scope.

Definition ex_lv : lvars := [("lastname", of_string "O'Brien"); ("firstname", of_string "J")].

Example C18_ex_email :
  email_of true ex_lv 27 1987 (of_string "example.com") (of_string "x@example.org")
  = Ok (of_string "J.OBrien@example.com")
  /\ email_of true ex_lv 40 1987 (of_string "example.net") (of_string "x@example.org")
  = Ok (of_string "J_OBrien1987@example.net")
  /\ email_of true [("lastname", of_string "Smith"); ("firstname", [82; 101; 110; 233])] 27 1987
              (of_string "example.com") (of_string "x@example.org")
  = Ok (of_string "x@example.org")
  /\ safe_addr (of_string "x@example.org") = true /\ reserved (of_string "example.com") = true.
Proof. vm_compute. repeat split; reflexivity. Qed.

Example C18_ex_username :
  user_name_of true ex_lv (of_string "web-01.smith.com") [] [] k1_uuid1
  = of_string "J.OBrien_ba2eaeb9-5c8e-474a-9d9b-d5ad0f343e7a@web-01.smith.com"
  /\ length (user_name_of true k1_lv k1_host [] [] k1_uuid1) = 80%nat.
Proof. vm_compute. repeat split; reflexivity. Qed.

(* regression for finding C18-K1 (names and host as Faker produced them for en_TH): the two
   uuids used to give the same username "Pattatomporn.Lertsattayanusak_@desktop-68…" *)
Example C18_ex_username_k1_regression :
  user_name_of true k1_lv k1_host [] [] k1_uuid1 <> user_name_of true k1_lv k1_host [] [] k1_uuid2
  /\ user_name_of true k1_lv k1_host [] [] k1_uuid1
     = of_string "Pattatomporn._ba2eaeb9-5c8e-47@desktop-68.kongchayasukawut-lertsattayanusak.info".
Proof. split; vm_compute; [discriminate|reflexivity]. Qed.

(* the residue of the full uniqueness statement *)
Example C18_ex_username_residue :
  exists matching lv host ff fl uuid1 uuid2,
    (length host <= 62)%nat /\ length uuid1 = 36%nat /\ length uuid2 = 36%nat /\
    uuid1 <> uuid2 /\ firstn 16 uuid1 = firstn 16 uuid2 /\
    user_name_of matching lv host ff fl uuid1 = user_name_of matching lv host ff fl uuid2.
Proof.
  exists true, k1_lv, k1_host, [], [], k1_uuid1, (of_string "ba2eaeb9-5c8e-4700-0000-000000000000").
  split; [apply Nat.leb_le; reflexivity|]. repeat apply conj; vm_compute; reflexivity || discriminate.
Qed.

Definition ex_fa := ["email"; "first_name"; "postcode"; "user_name"; "safe_email"].
Definition ex_sa := ["date_time"; "datetime"; "email"; "postalcode"; "user_name"].
Definition ex_sigs := [("date_time", "F:date_time_between"); ("datetime", "F:date_time_between");
                       ("email", "F:ascii_safe_email"); ("postalcode", "F:postcode"); ("user_name", "U")].

Example C18_ex_lookup :
  hyps_hold ex_fa ex_sa ex_sigs = true
  /\ lookup (build ex_fa ex_sa) "FirstName" = Some (Fk, "first_name")
  /\ lookup (build ex_fa ex_sa) "FIRST_NAME" = Some (Fk, "first_name")
  /\ lookup (build ex_fa ex_sa) "Email" = Some (Sf, "email")
  /\ lookup (build ex_fa ex_sa) "UserName" = Some (Sf, "user_name")
  /\ lookup (build ex_fa ex_sa) "Date_Time" = Some (Sf, "date_time")
  /\ lookup (build ex_fa ex_sa) "DateTime" = Some (Sf, "datetime")
  /\ lookup (build ex_fa ex_sa) "first_nam_e" = None
  (* the ko_KR situation (finding C18-K2, repaired): Faker's postal_code next to Snowfakery's
     postalcode — every spelling is answered by Snowfakery *)
  /\ hyps_hold ("postal_code" :: ex_fa) ex_sa ex_sigs = true
  /\ lookup (build ("postal_code" :: ex_fa) ex_sa) "postal_code" = Some (Sf, "postalcode")
  /\ lookup (build ("postal_code" :: ex_fa) ex_sa) "Postal_Code" = Some (Sf, "postalcode")
  /\ lookup (build ("postal_code" :: ex_fa) ex_sa) "PostalCode" = Some (Sf, "postalcode").
Proof. vm_compute. repeat split; reflexivity. Qed.

(* a nested Contact with names of its own between the Account's names and the Account's
   e-mail: the e-mail is made of the Account's names (the demo of notes/missed/C18_r2_mut1) *)
Example C18_ex_nested :
  let tbl := build ("last_name" :: ex_fa) ex_sa in
  run_ops tbl [] 2026
    [OPush; OFake "FirstName" true; OFake "LastName" true;
     OPush; OFake "first_name" true; OFake "last_name" true; OPop;
     OFake "Email" true; OPop] []
    (mkSt [] [("first_name", of_string "Jackson"); ("last_name", of_string "Miles");
              ("first_name", of_string "Bernard"); ("last_name", of_string "Norton");
              ("safe_domain_name", of_string "example.org")] [(60, 27); (71, 22)])
  = Ok [of_string "Jackson"; of_string "Miles"; of_string "Bernard"; of_string "Norton";
        of_string "J.Miles@example.org"].
Proof. vm_compute. reflexivity. Qed.

(* the recipe of notes/missed/r4_C18_2 (names asked for as ${{fake.first_name}} / ${{fake.LAST_NAME}},
   then `fake: Email`): the spellings satisfy the hypotheses of the three theorems above, and the
   row gives the same e-mail as with FirstName / LastName — built from Kristina Vega *)
Example C18_ex_spellings_reach_email :
  let tbl := build ("last_name" :: ex_fa) ex_sa in
  let s0 := mkSt [] [("first_name", of_string "Kristina"); ("last_name", of_string "Vega");
                     ("safe_domain_name", of_string "example.net")] [(60, 27); (71, 22)] in
  canon "first_name" = "firstname" /\ canon "First_Name" = "firstname" /\ canon "LAST_NAME" = "lastname"
  /\ run_ops tbl [] 2026 [OPush; OFake "first_name" true; OFake "LAST_NAME" true; OFake "Email" true; OPop] [] s0
     = Ok [of_string "Kristina"; of_string "Vega"; of_string "K.Vega@example.net"]
  /\ run_ops tbl [] 2026 [OPush; OFake "FirstName" true; OFake "LastName" true; OFake "Email" true; OPop] [] s0
     = Ok [of_string "Kristina"; of_string "Vega"; of_string "K.Vega@example.net"]
  /\ (exists v1 s1 v2 s2 e s4,
        fake_step tbl [] 2026 "First_Name" true s0 = Ok (v1, s1) /\
        fake_step tbl [] 2026 "LAST_NAME" false s1 = Ok (v2, s2) /\
        isascii v1 = true /\ isascii v2 = true /\ filter isalnum v1 <> [] /\ filter isalnum v2 <> [] /\
        fake_email 2026 true s2 = Ok (e, s4)).
Proof.
  intros tbl s0. repeat apply conj.
  1-5: vm_compute; reflexivity.
  (* each step is evaluated once its start state is known: evaluating the whole goal at once
     would normalise the later steps with their states still variables *)
  do 6 eexists.
  do 2 (split; [vm_compute; reflexivity|]).
  repeat apply conj; try discriminate; reflexivity.
Qed.
