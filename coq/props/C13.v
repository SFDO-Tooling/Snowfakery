(* C13 — unique_id and unique_alpha_code never collide within a run.
   Model: theories/UniqueId.v (snowfakery/standard_plugins/UniqueId.py,
   snowfakery/utils/scrambled_numbers.py, unique_id / unique_alpha_code of template_funcs.py).
   The statements; the lemmas they follow from are in proofs/UniqueIdP.v.

   In every theorem [mask], [nbits], [bpc] are arbitrary functions: Random(key).getrandbits(n),
   int(log(x,2))+1 and int(log(size,2)) only have to be functions of their arguments. *)
From Coq Require Import ZArith List.
From SFV Require Import Base UniqueId.
From SFV.P Require Import UniqueIdP.
Import ListNotations. Open Scope Z_scope.

(* The digit rendering (used for octal and for the alphabet) is exact for every base >= 2 and
   every n >= 0: in particular the model's digit fuel always suffices. *)
Theorem C13_digits_roundtrip :
  forall b n, 2 <= b -> 0 <= n -> from_digits b (to_digits b n) = n.
Proof. exact to_digits_value. Qed.
Print Assumptions C13_digits_roundtrip.

(* int("9".join(oct(x) for x in l)) determines the tuple l — for tuples of any (possibly
   different) lengths, including the leading-zero corner (first number 0). *)
Theorem C13_join9_injective :
  forall l l', l <> [] -> l' <> [] ->
    Forall (fun x => 0 <= x) l -> Forall (fun x => 0 <= x) l' ->
    encode l = encode l' -> l = l'.
Proof. exact encode_inj. Qed.
Print Assumptions C13_join9_injective.

(* Two numeric generators (any templates containing `index`, same randomize flag) can produce
   the same value only from the same tuple of numbers. *)
Theorem C13_values_collide_only_on_same_numbers :
  forall (mask : Z -> Z -> Z) (nbits : Z -> Z) tpl tpl' pid pid' c c' i i' r v,
    In PIndex tpl -> In PIndex tpl' ->
    num_value mask nbits tpl pid c i r = Ok v ->
    num_value mask nbits tpl' pid' c' i' r = Ok v ->
    instantiate tpl pid c i = instantiate tpl' pid' c' i'.
Proof. exact num_value_same_numbers. Qed.
Print Assumptions C13_values_collide_only_on_same_numbers.

(* One generator, any template that contains `index`: different draws, different values. *)
Theorem C13_template_injective :
  forall (mask : Z -> Z -> Z) (nbits : Z -> Z) tpl pid c i i' r v,
    In PIndex tpl ->
    num_value mask nbits tpl pid c i r = Ok v ->
    num_value mask nbits tpl pid c i' r = Ok v -> i = i'.
Proof.
  intros mask nbits tpl pid c i i' r v Hi H H'.
  exact (proj1 (num_value_inj mask nbits tpl pid pid c c i i' r v Hi eq_refl H H')).
Qed.
Print Assumptions C13_template_injective.

(* Two generators of the same template shape: a value in common forces the same index, the same
   context if the template has `context`, the same pid if it has `pid`. *)
Theorem C13_cross_generator_distinct :
  forall (mask : Z -> Z -> Z) (nbits : Z -> Z) tpl pid pid' c c' i i' r v,
    In PIndex tpl -> length pid = length pid' ->
    num_value mask nbits tpl pid c i r = Ok v ->
    num_value mask nbits tpl pid' c' i' r = Ok v ->
    i = i' /\ (In PContext tpl -> c = c') /\ (In PPid tpl -> pid = pid').
Proof. exact num_value_inj. Qed.
Print Assumptions C13_cross_generator_distinct.

(* unscramble_number undoes scramble_number, whatever minbits was. *)
Theorem C13_scramble_roundtrip :
  forall (mask : Z -> Z -> Z) (nbits : Z -> Z) n minbits v,
    scramble mask nbits n minbits = Ok v -> unscramble mask v = Ok n.
Proof. exact scramble_unscramble. Qed.
Print Assumptions C13_scramble_roundtrip.

(* scramble_number is injective across all minbits (numbits >= 1000 is the code's own assert:
   then the result is Err, not Ok). *)
Theorem C13_scramble_injective :
  forall (mask : Z -> Z -> Z) (nbits : Z -> Z) n n' minbits minbits' v,
    scramble mask nbits n minbits = Ok v -> scramble mask nbits n' minbits' = Ok v -> n = n'.
Proof. intros mask nbits. exact (scramble_inj mask nbits nbits). Qed.
Print Assumptions C13_scramble_injective.

(* Alphabet encoding with left padding: injective for duplicate-free alphabets of size >= 2,
   also across different min_chars. *)
Theorem C13_alpha_injective :
  forall abc w w' n n' s, NoDup abc -> (2 <= length abc)%nat ->
    alpha_string abc w n = Ok s -> alpha_string abc w' n' = Ok s -> n = n'.
Proof. exact alpha_string_inj. Qed.
Print Assumptions C13_alpha_injective.

Theorem C13_alpha_charset :
  forall abc w n s, alpha_string abc w n = Ok s -> Forall (fun c => In c abc) s.
Proof. intros abc w n s H. apply (alpha_string_shape abc w n s H). Qed.
Print Assumptions C13_alpha_charset.

Theorem C13_alpha_min_len :
  forall abc w n s, alpha_string abc w n = Ok s -> w <= Z.of_nat (length s).
Proof. intros abc w n s H. apply (alpha_string_shape abc w n s H). Qed.
Print Assumptions C13_alpha_min_len.

(* the three statements above are not vacuous: the encoding never fails *)
Theorem C13_alpha_total :
  forall abc w n, (2 <= length abc)%nat -> 0 <= n -> exists s, alpha_string abc w n = Ok s.
Proof. exact alpha_string_total. Qed.
Print Assumptions C13_alpha_total.

(* Pipeline, default unique_id generators (`unique_id`, `UniqueId.unique_id`,
   `UniqueId.NumericIdGenerator` without template), small-id or big-id mode, any pid: a value in
   common means same generator (context number) and same draw. *)
Theorem C13_pipeline :
  forall (mask : Z -> Z -> Z) (nbits : Z -> Z) big big' pid pid' c c' i i' v,
    num_value mask nbits (default_numeric_tpl big) pid c i true = Ok v ->
    num_value mask nbits (default_numeric_tpl big') pid' c' i' true = Ok v ->
    c = c' /\ i = i'.
Proof. exact pipeline_numeric_pair. Qed.
Print Assumptions C13_pipeline.

(* ... hence: any number of default generators with pairwise different context numbers (the
   process-wide counter), each drawn any number of times: all values pairwise distinct. *)
Theorem C13_pipeline_process :
  forall (mask : Z -> Z -> Z) (nbits : Z -> Z) (gens : list dgen) (vs : list Z),
    NoDup (map d_ctx gens) -> process_draws mask nbits gens = map Ok vs -> NoDup vs.
Proof.
  intros mask nbits gens vs Hctx.
  apply (flat_draws_NoDup d_ctx (fun g => Zseq (d_start g) (d_n g))); auto using BaseP.Zseq_NoDup.
  intros g g' i i' v _ _. apply pipeline_numeric_pair.
Qed.
Print Assumptions C13_pipeline_process.

(* FULL STATEMENT FOR ALPHA CODES (false, see C13_refuted_default_alpha_small_mode):
     codes of alpha generators are pairwise distinct across generators, in both id modes.
   PROVED PART: alpha generators over the same duplicate-free alphabet (any min_chars), same
   randomize_codes flag, same template containing `index`: a code in common forces the same
   index, and the same context / pid IF THE TEMPLATE CONTAINS `context` / `pid`.  This covers the
   big-id default template (pid,context,index) and every user template with `context`; it says
   nothing across generators for the small-id default template (`index` alone).  Also missing:
   generators over different alphabets (their codes are not comparable by decoding). *)
Theorem C13_pipeline_alpha_partial :
  forall (mask : Z -> Z -> Z) (nbits bpc : Z -> Z) a a' tpl pid pid' c c' i i' s,
    al_alphabet a = al_alphabet a' -> al_randomize a = al_randomize a' ->
    NoDup (al_alphabet a) -> (2 <= length (al_alphabet a))%nat ->
    In PIndex tpl -> length pid = length pid' ->
    alpha_value mask nbits bpc a tpl pid c i = Ok s ->
    alpha_value mask nbits bpc a' tpl pid' c' i' = Ok s ->
    i = i' /\ (In PContext tpl -> c = c') /\ (In PPid tpl -> pid = pid').
Proof. intros; eapply alpha_value_inj; eassumption. Qed.
Print Assumptions C13_pipeline_alpha_partial.

(* BIG-ID MODE ONLY (the default template then is pid,context,index): default alpha generators
   with any pids and min_chars share a code only for the same generator and the same draw ... *)
Theorem C13_pipeline_alpha_big_mode :
  forall (mask : Z -> Z -> Z) (nbits bpc : Z -> Z) a a' pid pid' c c' i i' s,
    al_alphabet a = al_alphabet a' -> al_randomize a = al_randomize a' ->
    NoDup (al_alphabet a) -> (2 <= length (al_alphabet a))%nat ->
    alpha_value mask nbits bpc a (default_alpha_tpl true) pid c i = Ok s ->
    alpha_value mask nbits bpc a' (default_alpha_tpl true) pid' c' i' = Ok s ->
    c = c' /\ i = i'.
Proof. intros; eapply pipeline_alpha_pair_big; eassumption. Qed.
Print Assumptions C13_pipeline_alpha_big_mode.

(* ... hence any number of BIG-ID-MODE default alpha generators over one alphabet / randomize flag
   with pairwise different context numbers, each drawn any number of times: all codes distinct.
   (Without the hypothesis ag_big = true this is false: K5.) *)
Theorem C13_pipeline_alpha_process_big_mode :
  forall (mask : Z -> Z -> Z) (nbits bpc : Z -> Z) (abc : list Z) (rc : bool)
         (gens : list agen) (codes : list (list Z)),
    NoDup abc -> (2 <= length abc)%nat ->
    (forall g, In g gens -> ag_big g = true) ->
    NoDup (map ag_ctx gens) ->
    aprocess_draws mask nbits bpc abc rc gens = map Ok codes -> NoDup codes.
Proof.
  intros mask nbits bpc abc rc gens codes Hnd Hlen Hbig Hctx.
  apply (flat_draws_NoDup ag_ctx (fun g => Zseq alpha_start (ag_n g))); auto using BaseP.Zseq_NoDup.
  intros g g' i i' v Hg Hg'. rewrite (Hbig g Hg), (Hbig g' Hg'). apply pipeline_alpha_pair_big; auto.
Qed.
Print Assumptions C13_pipeline_alpha_process_big_mode.

(* every code of an alpha generator uses only its alphabet and has at least min_chars chars *)
Theorem C13_alpha_generator_charset_min_len :
  forall (mask : Z -> Z -> Z) (nbits bpc : Z -> Z) a tpl pid c i s,
    alpha_value mask nbits bpc a tpl pid c i = Ok s ->
    Forall (fun ch => In ch (al_alphabet a)) s /\ al_min_chars a <= Z.of_nat (length s).
Proof. exact alpha_value_charset_len. Qed.
Print Assumptions C13_alpha_generator_charset_min_len.

(* Known finding K5: in small-id mode the default alpha template is `index` only, so every
   default alpha generator of a process (`unique_alpha_code`, each default
   `UniqueId.AlphaCodeGenerator`, and the same `var:` re-created in the next iteration) emits the
   same sequence. *)
Theorem C13_default_alpha_small_ignores_context :
  forall (mask : Z -> Z -> Z) (nbits bpc : Z -> Z) a pid c c' i,
    alpha_value mask nbits bpc a (default_alpha_tpl false) pid c i =
    alpha_value mask nbits bpc a (default_alpha_tpl false) pid c' i.
Proof. reflexivity. Qed.
Print Assumptions C13_default_alpha_small_ignores_context.

(* The witness of corpus/C13/k5_default_alpha_small_mode.json: two default alpha generators
   (context numbers 2 and 3), first draw (index 1001), observed mask_for_key(1,27) = 18034063,
   int(log(175,2))+1 = 8, int(log(36,2)) = 5: both give "2AUHHSZN". *)
Theorem C13_refuted_default_alpha_small_mode :
  exists a c c' i s,
    alpha_new (default_alpha_tpl false) None 8 true = Ok a /\ c <> c' /\
    alpha_value (fun _ _ => 18034063) (fun _ => 8) (fun _ => 5) a (default_alpha_tpl false) [] c i = Ok s /\
    alpha_value (fun _ _ => 18034063) (fun _ => 8) (fun _ => 5) a (default_alpha_tpl false) [] c' i = Ok s.
Proof.
  exists (mkAlpha default_alphabet 8 true), 2, 3, 1001, [50; 65; 85; 72; 72; 83; 90; 78].
  split; [vm_compute; reflexivity|]. split; [discriminate|].
  split; vm_compute; reflexivity.
Qed.
Print Assumptions C13_refuted_default_alpha_small_mode.

(* FULL STATEMENT ACROSS TEMPLATES (false): values of generators with DIFFERENT template shapes are
   distinct.  C13_values_collide_only_on_same_numbers says they coincide exactly when the
   instantiated tuples coincide, and tuples of different shapes can coincide: template
   `index,context` with context 1, index 2 and the default `context,index` with context 2,
   index 1 both give the tuple (2,1) -> 291 -> 1481010 (witness corpus/C13/cross_shape_collision.json;
   observed mask_for_key(1,10) = 137).  C13_cross_generator_distinct is the proved part (same
   shape). *)
Theorem C13_refuted_cross_shape :
  exists tpl tpl' c c' i i' v,
    tpl <> tpl' /\ c <> c' /\
    In PContext tpl /\ In PIndex tpl /\ In PContext tpl' /\ In PIndex tpl' /\
    num_value (fun _ _ => 137) (fun _ => 5) tpl [] c i true = Ok v /\
    num_value (fun _ _ => 137) (fun _ => 5) tpl' [] c' i' true = Ok v.
Proof.
  exists [PIndex; PContext], (default_numeric_tpl false), 1, 2, 2, 1, 1481010.
  BaseP.splits; [discriminate|discriminate|cbn; auto..|vm_compute; reflexivity|vm_compute; reflexivity].
Qed.
Print Assumptions C13_refuted_cross_shape.

(* ---- template strings (UniqueNumericIdGenerator.__init__ / _convert on the raw `parts` string) ---- *)

(* Every template over pid / context / index / non-negative literal numbers can be written as a
   string ("pid,context,index,123") that the constructor's parser — split on ",", strip, lower,
   classify — reads back as exactly that template: the theorems above, stated over part lists,
   speak about every template a user can write, and about nothing else (next theorem). *)
Theorem C13_template_string_roundtrip :
  forall tpl, tpl <> [] ->
    Forall (fun p => match p with PBad => False | PNum n => 0 <= n | _ => True end) tpl ->
    parse_template (print_template tpl) = Ok tpl.
Proof. exact parse_print. Qed.
Print Assumptions C13_template_string_roundtrip.

(* Whatever ASCII string is given, the parser returns a non-empty part list whose literals are
   non-negative numbers (isnumeric accepts digits only: no sign, no "o" of a negative octal). *)
Theorem C13_parsed_literals_nonneg :
  forall s tpl, parse_template s = Ok tpl ->
    Forall (fun p => match p with PNum n => 0 <= n | _ => True end) tpl /\ tpl <> [].
Proof. exact parse_literals_nonneg. Qed.
Print Assumptions C13_parsed_literals_nonneg.

(* ... so a numeric generator made from ANY accepted template string never fails on a draw (pid
   numbers, context and index are non-negative in the code: oct(pid), count(1), count(start));
   the only failure left is scramble_number's own 1000-bit limit.  The injectivity theorems are
   therefore about values that exist. *)
Theorem C13_unique_id_total :
  forall (mask : Z -> Z -> Z) (nbits : Z -> Z) s tpl pid c i r,
    parse_template s = Ok tpl -> Forall (fun x => 0 <= x) pid -> 0 <= c -> 0 <= i ->
    (forall x, nbits x < 1000) ->
    exists v, num_value mask nbits tpl pid c i r = Ok v.
Proof.
  intros mask nbits s tpl pid c i r Hs. apply num_value_total, (parse_literals_nonneg s tpl Hs).
Qed.
Print Assumptions C13_unique_id_total.

(* scramble_number stays injective even if the float logarithm is NOT a function (different bit
   counts in the two calls): the result carries the bit count that was used.  Only the mask has to
   be one function of (key, numbits) for the whole process. *)
Theorem C13_scramble_injective_any_bit_count :
  forall (mask : Z -> Z -> Z) (nbits nbits' : Z -> Z) n n' minbits minbits' v,
    scramble mask nbits n minbits = Ok v -> scramble mask nbits' n' minbits' = Ok v -> n = n'.
Proof. exact scramble_inj. Qed.
Print Assumptions C13_scramble_injective_any_bit_count.

(* "at least min_chars long", for the min_chars the USER asked for (AlphaUniquifier.__init__ raises
   it to 4 when randomize_codes is on), and only characters of the alphabet in use *)
Theorem C13_alpha_code_requested_length :
  forall (mask : Z -> Z -> Z) (nbits bpc : Z -> Z) tpl abc mc rc a pid c i s,
    alpha_new tpl abc mc rc = Ok a -> alpha_value mask nbits bpc a tpl pid c i = Ok s ->
    mc <= Z.of_nat (length s) /\ Forall (fun ch => In ch (al_alphabet a)) s.
Proof.
  intros mask nbits bpc tpl abc mc rc a pid c i s Ha Hv. apply alpha_new_min_chars in Ha as (Hm & _).
  apply alpha_value_charset_len in Hv as [Hc Hl]. split; [exact (Z.le_trans _ _ _ Hm Hl)|exact Hc].
Qed.
Print Assumptions C13_alpha_code_requested_length.

(* ---- one process, any number of generate_data runs (theories/UniqueId.v, p_step / p_run) ----
   The machine: a process-wide counter hands every constructed generator (in whatever run, also when
   re-created from a continuation file, also when the constructor then fails) the next context number;
   every generator counts its own draws from `start`; run boundaries change nothing; the mask is ONE
   function for the whole process.  [ops] is any sequence of constructor calls, draws, run boundaries
   and "burns" (context numbers used up by anything else). *)

(* the (context, index) pairs of all draws of a process are pairwise different, and a context number
   names one generator *)
Theorem C13_process_keys_fresh :
  forall c0 ops,
    NoDup (map (fun k : rspec * Z * Z => (snd (fst k), snd k)) (process_keys c0 ops)) /\
    (forall r r' c i i', In (r, c, i) (process_keys c0 ops) -> In (r', c, i') (process_keys c0 ops) ->
                         r = r').
Proof.
  intros c0 ops. split; [exact (process_keys_NoDup c0 ops)|].
  intros r r' c i i'. exact (process_keys_spec_fun c0 ops r r' c i i').
Qed.
Print Assumptions C13_process_keys_fresh.

(* Two draws anywhere in the process — same run or different runs — from generators of the same
   template containing `context` and `index` (numeric with the same randomize flag, or alphabetic
   over the same duplicate-free alphabet with the same randomize_codes flag; any pids of the same
   number of chunks, any min_chars) give the same value only if they are the same draw. *)
Theorem C13_process_same_shape_distinct :
  forall (mask : Z -> Z -> Z) (nbits bpc : Z -> Z) c0 ops r r' c c' i i' v,
    In (r, c, i) (process_keys c0 ops) -> In (r', c', i') (process_keys c0 ops) ->
    comparable r r' -> In PContext (spec_tpl r) -> In PIndex (spec_tpl r) ->
    rvalue mask nbits bpc r c i = Ok v -> rvalue mask nbits bpc r' c' i' = Ok v ->
    (r, c, i) = (r', c', i').
Proof.
  intros mask nbits bpc c0 ops r r' c c' i i' v Hin Hin' Hcmp Hc Hi Hv Hv'.
  destruct (rvalue_inj _ _ _ _ _ _ _ _ _ _ Hcmp Hi Hv Hv') as [<- Hcc]. destruct (Hcc Hc).
  rewrite (process_keys_spec_fun _ _ _ _ _ _ _ Hin Hin'). reflexivity.
Qed.
Print Assumptions C13_process_same_shape_distinct.

(* Default unique_id generators (`unique_id`, `UniqueId.unique_id`, template-less
   `UniqueId.NumericIdGenerator`; small-id and big-id mode in any mix; any pids): ALL values of the
   process are pairwise distinct.  Unlike C13_pipeline_process there is no hypothesis about context
   numbers: the machine allocates them. *)
Theorem C13_process_default_numeric_distinct :
  forall (mask : Z -> Z -> Z) (nbits bpc : Z -> Z) c0 ops vs,
    (forall r c i, In (r, c, i) (process_keys c0 ops) ->
       exists big pid, r = RNum (default_numeric_tpl big) pid true) ->
    process_values mask nbits bpc c0 ops = map Ok vs -> NoDup vs.
Proof. exact process_default_numeric_NoDup. Qed.
Print Assumptions C13_process_default_numeric_distinct.

(* BIG-ID MODE ONLY (see K5): default alpha generators over one duplicate-free alphabet and one
   randomize_codes flag (any min_chars, any pids): all codes of the process are pairwise distinct, again
   without a hypothesis about context numbers. *)
Theorem C13_process_default_alpha_big_mode_distinct :
  forall (mask : Z -> Z -> Z) (nbits bpc : Z -> Z) c0 ops abc rc vs,
    NoDup abc -> (2 <= length abc)%nat ->
    (forall r c i, In (r, c, i) (process_keys c0 ops) ->
       exists pid a, r = RAlpha (default_alpha_tpl true) pid a /\ al_alphabet a = abc /\ al_randomize a = rc) ->
    process_values mask nbits bpc c0 ops = map Ok vs -> NoDup vs.
Proof. exact process_default_alpha_big_NoDup. Qed.
Print Assumptions C13_process_default_alpha_big_mode_distinct.

(* ---- non-vacuity: concrete runs satisfying the hypotheses ---- *)

(* the example of the comment in UniqueId.py: [127, 99, 0, 1] -> 17791439091 *)
Example C13_ex_encode : encode [127; 99; 0; 1] = 17791439091.
Proof. vm_compute. reflexivity. Qed.

(* leading-zero corner: first number 0 *)
Example C13_ex_encode_zero : encode [0; 0; 8] = 90910 /\ encode [0] = 0.
Proof. split; vm_compute; reflexivity. Qed.

(* default small-mode unique_id, context 3, first draw; mask_for_key(1,10) = 137 *)
Example C13_ex_unique_id :
  num_value (fun _ _ => 137) (fun _ => 6) (default_numeric_tpl false) [] 3 1 true = Ok 1741010.
Proof. vm_compute. reflexivity. Qed.

Example C13_ex_roundtrip :
  scramble (fun _ _ => 137) (fun _ => 6) 391 10 = Ok 1741010 /\
  unscramble (fun _ _ => 137) 1741010 = Ok 391.
Proof. split; vm_compute; reflexivity. Qed.

Example C13_ex_process :
  process_draws (fun k n => k * 37 + n) (fun n => Z.log2 n + 1)
                [mkDgen false [] 1 1 3; mkDgen true [5] 2 1 2; mkDgen false [] 7 1 2]
  = map Ok [601010; 712010; 1063010; 59151013; 60142013; 961010; 272010].
Proof. vm_compute. reflexivity. Qed.

Example C13_ex_alpha_process :
  exists codes,
    aprocess_draws (fun k n => k * 37 + n) (fun n => Z.log2 n + 1) (fun _ => 5) default_alphabet true
                   [mkAgen true [9] 1 8 2; mkAgen true [5] 2 12 2] = map Ok codes /\ length codes = 4%nat.
Proof.
  eexists (_ :: _ :: _ :: _ :: nil). split; [vm_compute; reflexivity|reflexivity].
Qed.

Example C13_ex_alpha :
  alpha_string [65; 67; 71; 84] 6 27 = Ok [65; 65; 65; 67; 71; 84].   (* "AAACGT" *)
Proof. vm_compute. reflexivity. Qed.

(* " PID , 007,Index,context" is read as pid, 7, index, context;  "1_000" / "+5" / "" are rejected *)
Example C13_ex_parse :
  parse_template [32; 80; 73; 68; 32; 44; 32; 48; 48; 55; 44; 73; 110; 100; 101; 120; 44; 99; 111; 110;
                  116; 101; 120; 116] = Ok [PPid; PNum 7; PIndex; PContext] /\
  parse_template [49; 95; 48; 48; 48; 44; 43; 53; 44] = Ok [PBad; PBad; PBad] /\
  print_template [PPid; PNum 120; PIndex] = [112; 105; 100; 44; 49; 50; 48; 44; 105; 110; 100; 101; 120].
Proof. repeat split; vm_compute; reflexivity. Qed.

(* a process of two runs: run 1 makes a default small-id generator (context 1) and draws twice; a bad
   template burns context 2; run 2 makes a big-id generator (context 3), draws from both *)
Example C13_ex_machine :
  process_values (fun k n => k * 37 + n) (fun n => Z.log2 n + 1) (fun _ => 5) 1
    [ONew (Ok (RNum (default_numeric_tpl false) [] true, 1)); ODraw 0 2; OBoundary;
     ONew (Err (DGE "")); ONew (Ok (RNum (default_numeric_tpl true) [5] true, 1)); ODraw 1 1; ODraw 0 1]
  = map Ok [VNum 601010; VNum 712010; VNum 58891013; VNum 1063010].
Proof. vm_compute. reflexivity. Qed.

(* ---------------------------------------------------------------- one generator, several names (round 5)

   A recipe gets at a generator through names: the nickname and the table name of the (just_once) row that
   holds it in a field, `reference:` fields, variables holding references, the parent row of a friend ...
   [names_keys c0 prog] are the (generator, context, index) keys of all draws of a program over names
   (constructor calls bound to names, aliases, draws through names, names going out of scope, runs chained by
   continuations or started afresh), compiled to the process machine.  [n_continue] is what a continuation does
   to the store of names: every generator that some name denotes is built anew exactly once and all its names
   move to the new one (in the code: one YAML anchor per Python object in the continuation file). *)

(* A continuation keeps the sharing: two names denote one generator afterwards exactly when they did before, and
   what they denote afterwards was made by the continuation (its number lies above every earlier generator). *)
Theorem C13_continuation_keeps_sharing :
  forall st a b ga gb,
    st_lookup (ns_store st) a = Some ga -> st_lookup (ns_store st) b = Some gb ->
    exists ga' gb',
      st_lookup (ns_store (fst (n_continue st))) a = Some ga' /\
      st_lookup (ns_store (fst (n_continue st))) b = Some gb' /\
      (ga = gb <-> ga' = gb') /\
      (length (ns_made st) <= ga')%nat /\ (length (ns_made st) <= gb')%nat.
Proof. exact names_continue_keeps_sharing. Qed.
Print Assumptions C13_continuation_keeps_sharing.

(* Whatever the names, aliases and continuations: no (context, index) pair is used twice. *)
Theorem C13_names_keys_fresh :
  forall c0 prog,
    NoDup (names_keys c0 prog) /\
    NoDup (map (fun k : rspec * Z * Z => (snd (fst k), snd k)) (names_keys c0 prog)).
Proof. intros c0 prog. split; [apply process_keys_NoDup_full|apply process_keys_NoDup]. Qed.
Print Assumptions C13_names_keys_fresh.

(* Two draws of a program over names that land on the same generator (same constructor arguments, same context
   number) — through whatever names, template with or without `context`, numeric or alphabetic over a
   duplicate-free alphabet — give the same value only if they are the same draw. *)
Theorem C13_names_one_generator_never_repeats :
  forall (mask : Z -> Z -> Z) (nbits bpc : Z -> Z) c0 prog p q r c i i' v,
    nth_error (names_keys c0 prog) p = Some (r, c, i) ->
    nth_error (names_keys c0 prog) q = Some (r, c, i') ->
    comparable r r -> In PIndex (spec_tpl r) ->
    rvalue mask nbits bpc r c i = Ok v -> rvalue mask nbits bpc r c i' = Ok v -> p = q.
Proof. intros mask nbits bpc c0 prog. exact (process_one_generator_distinct mask nbits bpc c0 _). Qed.
Print Assumptions C13_names_one_generator_never_repeats.

(* non-vacuity.  Template "pid,index" (no context), pid 5; name 0 = the nickname, name 1 = the table name.
   Run 1 draws through both names, the continuation rebuilds the ONE generator (context 2, index from 1 again),
   run 2 draws through both names: indexes 1, 2, 3 of the same generator. *)
Example C13_ex_names :
  let sp := SNum [112; 105; 100; 44; 105; 110; 100; 101; 120] [5] 1 true in
  map (fun k : rspec * Z * Z => (snd (fst k), snd k))
      (names_keys 1 [NNew 0 sp; NAlias 1 0; NDraw 0; NDraw 1; NContinue; NDraw 0; NDraw 1; NDraw 0])
  = [(1, 1); (1, 2); (2, 1); (2, 2); (2, 3)].
Proof. vm_compute. reflexivity. Qed.

(* ... and why the sharing matters for a template without `context`: were the two names given a generator
   each (as when the continuation file spells every occurrence out), both would start at index 1 and — the
   context number not being part of the id — hand out the same id. *)
Example C13_ex_names_unshared :
  let sp := SNum [112; 105; 100; 44; 105; 110; 100; 101; 120] [5] 1 true in
  map (fun k : rspec * Z * Z => (snd (fst k), snd k))
      (names_keys 1 [NNew 0 sp; NAlias 1 0; NDraw 0; NDraw 1; NFresh; NNew 0 sp; NNew 1 sp; NDraw 0; NDraw 1])
  = [(1, 1); (1, 2); (2, 1); (3, 1)] /\
  num_value (fun k n => k * 37 + n) (fun n => Z.log2 n + 1) [PPid; PIndex] [5] 2 1 true =
  num_value (fun k n => k * 37 + n) (fun n => Z.log2 n + 1) [PPid; PIndex] [5] 3 1 true.
Proof. split; vm_compute; reflexivity. Qed.

(* the store after a continuation: names 0 and 1 shared generator 0 and share generator 3 afterwards; name 7
   had generator 1 and has generator 2 (the order in which the continuation rebuilds the generators is not
   compared with the implementation) *)
Example C13_ex_continue_store :
  ns_store (fst (n_continue (mkNstate [(0, 0); (7, 1); (1, 0)]%nat
                                      [(RNum [PIndex] [] true, 1); (RNum [PContext; PIndex] [] true, 1)])))
  = [(0, 3); (7, 2); (1, 3)]%nat.
Proof. vm_compute. reflexivity. Qed.
