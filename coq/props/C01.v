(* C01 — row ids are unique and dense per table across iterations (and continuations).
   Model: theories/Interp.v (SF-core interpreter: IdManager, NicknameSlot, Globals,
   ObjectTemplate._generate_row).  Proofs: proofs/IdsP.v.                                *)
From Coq Require Import ZArith List Permutation.
From SFV Require Import Base Interp.
From SFV.P Require Import InterpP IdsP.
Import ListNotations. Open Scope Z_scope. Open Scope string_scope.

(* For every recipe of the SF-core fragment and every number k of iterations: if the run
   completes, then for every visible table the ids of the rows delivered to the output are
   exactly 1..n (n = highest id issued for the table): none twice, none skipped. *)
Theorem C01_ids_dense :
  forall (r : recipe) (k : nat) (s : st),
    run_fresh r k = Ok s ->
    forall T, hidden T = false ->
      Permutation (written T (out s)) (Zseq 1 (Z.to_nat (last_id s T))).
Proof. exact ids_dense_fresh. Qed.
Print Assumptions C01_ids_dense.

(* Any chain of continuation runs (first run fresh, each later run started from the
   continuation file written by the previous one; any number of iterations per run): per
   visible table, the ids written over the whole history are exactly 1..n. *)
Theorem C01_ids_dense_history :
  forall (r : recipe) (ks : list nat) (rowss : list (list orow)),
    run_history r ks None = Ok rowss ->
    forall T, hidden T = false -> exists n, Permutation (written T (concat rowss)) (Zseq 1 n).
Proof. exact ids_dense_history. Qed.
Print Assumptions C01_ids_dense_history.

(* One run from any admissible start state (fresh, or loaded from a continuation file): the
   ids it writes for a visible table are exactly the next block last0+1 .. last. *)
Theorem C01_ids_dense_run :
  forall e stmts c k s0 s,
    start_ok s0 -> iterations k e stmts c s0 = Ok s ->
    start_ok (upd_out s []) /\
    forall T, last_id s0 T <= last_id s T /\
      (hidden T = false ->
       Permutation (written T (out s))
                   (Zseq (last_id s0 T + 1) (Z.to_nat (last_id s T - last_id s0 T)))).
Proof. exact ids_dense_run. Qed.
Print Assumptions C01_ids_dense_run.

(* a continued run resumes numbering immediately after the highest id recorded in the file *)
Theorem C01_resume_after_highest :
  forall e s c s0 T, save s = Ok c -> load e c = Ok s0 -> last_id s0 T = last_id s T.
Proof. exact resume_after_highest. Qed.
Print Assumptions C01_resume_after_highest.

(* The invariant behind it, for every task of the evaluator, any set [miss] of ids issued
   by earlier runs and any number n0 of heap cells loaded from a continuation file:
   ids issued = rows created by this run + ids reserved by forward references + miss. *)
Theorem C01_invariant_step :
  forall miss n0 fuel e tk s s' r,
    run fuel e tk s = Ok (s', r) -> K miss n0 s -> K miss n0 s' /\ bal n0 s s'.
Proof. exact run_K. Qed.
Print Assumptions C01_invariant_step.

(* ---- non-vacuity: a recipe with a forward reference, a nickname, a nested template, a
   zero count and a hidden table, three iterations ---- *)
Definition ex_recipe : recipe :=
  mkRecipe 3 []
    [SObj (Tpl "A" None (Some (FLitInt 2)) false
             [("f0", FRef "bb"); ("f1", FNested (Tpl "C" None (Some (FLitInt 0)) false [] []))]
             [SObj (Tpl "__H" None None false [] [])]);
     SObj (Tpl "B" (Some "bb") None false [("f0", FFormula [PExpr (EAttr (EVar "A") "id")])] [])] [].

Example C01_ex_history :
  match run_history ex_recipe [1; 2]%nat None with
  | Ok rowss => map (fun rows => written "A" rows) rowss
  | Err _ => []
  end = [[1; 2]; [3; 4; 5; 6]].
Proof. vm_compute. reflexivity. Qed.

Example C01_ex_runs :
  match run_fresh ex_recipe 3 with
  | Ok s => (written "A" (out s), written "B" (out s), last_id s "__H")
  | Err _ => ([], [], 0)
  end = ([6; 5; 4; 3; 2; 1], [3; 2; 1], 6).
Proof. vm_compute. reflexivity. Qed.

(* Under a row-count target (generate(..., target_number=(N, T))): a target run that returns is a
   repetition run of some number of whole iterations (props/C07.v, C07_interp_target_fresh), so the
   ids are dense for it too, whatever table the target names. *)
From SFV Require Import StopInterp.
From SFV Require Stopping.
From SFV.P Require Import StopInterpP.
Theorem C01_ids_dense_target :
  forall (r : recipe) T N fuel s j,
    Stopping.proper_table T -> hidden T = false ->
    run_target r (Some (Stopping.mkCrit T N)) fuel None = Ok (s, j) ->
    forall U, hidden U = false ->
      Permutation (written U (out s)) (Zseq 1 (Z.to_nat (last_id s U))).
Proof.
  intros r T N fuel s j HT Hv H.
  destruct (target_run_fresh r T N fuel s j HT Hv H) as (_ & _ & Hrun & _).
  exact (ids_dense_fresh r j s Hrun).
Qed.
Print Assumptions C01_ids_dense_target.
