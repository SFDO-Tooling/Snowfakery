(* C08 — every configured output receives every row, faithfully.
   Model: theories/Streams.v (snowfakery/output_streams.py, api.py configure_output_stream,
   parse_recipe_yaml.py TableInfo), theories/StreamParse.v (parse_recipe_yaml.py: include files,
   macros, nested templates, friends, variables -> registered templates), theories/StreamCodecs.v
   (the csv / json / sqlite-dump / debug text formats as executable writers and readers).
   The statements; the lemmas they follow from are in proofs/StreamsP.v, StreamParseP.v, StreamCodecsP.v.

   What each format writes for each value type ([Streams.encode] / [Streams.obs_row]) and the bytes
   of the artefacts ([StreamCodecs.csv_file], [json_doc], [sql_insert], [txt_line]) are tied to
   /repo by the correspondence check on every run: the bytes of every small artefact are read by
   the model's readers and compared with the model's writers.  Theorems below cover the machinery
   that moves rows (the database stream's buffer, the multiplexer, the application layer around
   close()), where the schema comes from (the parser), and the formats themselves (reader . writer
   = identity for all rows).

   Full statement of the last clause ("a run that reports success has lost nothing"):
     forall e outs rows ss clean, env_ok e -> Forall (initial e) outs ->
       app_run e outs rows = Ok (ss, clean) -> Forall (complete e rows) ss
   It is FALSE for the code as it is (finding K9): proved below restricted to clean = true
   (C08_success_means_lossless_partial) and refuted in general (C08_refuted_close_error_swallowed). *)
From Coq Require Import ZArith List String Lia.
From SFV Require Import Base Streams StreamParse StreamCodecs StreamCases.
From SFV.P Require Import StreamsP StreamParseP StreamCodecsP.
Import ListNotations. Open Scope Z_scope.

(* SqlDbOutputStream (hc = true) and the stream inside SqlTextOutputStream (hc = false):
   for EVERY row list, every pair of thresholds and every acceptance behaviour of the
   database, if write_row ... write_row, close() raise nothing then the database holds, per
   table, exactly the rows written for that table, in order, projected onto its columns. *)
Theorem C08_db_lossless :
  forall (acc : row -> bool) (hc : bool) (fl cl : Z) (ti : tables),
    NoDup (map fst ti) -> (forall t, In t (map fst ti) -> t <> ""%string) ->
    forall rows s, db_run acc hc fl cl ti rows = Ok s -> d_db s = expected_db ti rows.
Proof. exact db_lossless. Qed.
Print Assumptions C08_db_lossless.

(* ... and every row of a table the stream knows is in there *)
Theorem C08_db_every_row :
  forall acc hc fl cl ti rows s,
    NoDup (map fst ti) -> (forall t, In t (map fst ti) -> t <> ""%string) ->
    db_run acc hc fl cl ti rows = Ok s ->
    forall t r cols, In (t, r) rows -> In (t, cols) ti -> In (project cols r) (lget t (d_db s)).
Proof. intros. eapply db_every_row; eassumption. Qed.
Print Assumptions C08_db_every_row.

(* nothing raises as long as the database accepts every (projected) row *)
Theorem C08_db_run_ok :
  forall acc hc fl cl ti, NoDup (map fst ti) -> 0 < fl -> 0 < cl ->
    forall rows, accepted acc ti rows -> exists s, db_run acc hc fl cl ti rows = Ok s.
Proof. exact db_run_ok. Qed.
Print Assumptions C08_db_run_ok.

(* the thresholds, for every n: after n writes the counter is n + 1, another connection sees
   exactly the first fl * (n / fl) rows, and database ++ buffer = all n rows *)
Theorem C08_db_visible_prefix :
  forall acc hc fl cl ti rows s,
    NoDup (map fst ti) -> 0 < fl -> 0 < cl -> (fl | cl) ->
    db_writes acc hc fl cl ti (db_init ti) rows = Ok s ->
    d_count s = Z.of_nat (length rows) + 1 /\
    d_db s = expected_db ti (firstn (Z.to_nat (fl * (Z.of_nat (length rows) / fl))) rows) /\
    (forall t cols, In (t, cols) ti ->
       lget t (d_db s) ++ map (project cols) (lget t (d_buf s)) = map (project cols) (rows_of t rows)).
Proof. intros. eapply db_visible_prefix; eassumption. Qed.
Print Assumptions C08_db_visible_prefix.

(* schema inference: every key of a row generated from any template of a recipe is a column
   of the inferred table, for the database and for the CSV header *)
Theorem C08_keys_in_schema :
  forall tpls t, In t tpls -> hidden (t_table t) = false ->
    exists ti, aget (t_table t) (infer tpls) = Some ti /\
               forall k, In k (row_keys t) -> In k (fallback ti) /\ In k (csv_header ti).
Proof. exact keys_in_schema. Qed.
Print Assumptions C08_keys_in_schema.

(* hence the projection in _flush_rows drops no field of such a row and DictWriter does not
   raise on it *)
Theorem C08_generated_row_fits :
  forall tpls t (r : row), In t tpls -> hidden (t_table t) = false ->
    incl (map fst r) (row_keys t) ->
    exists ti, aget (t_table t) (infer tpls) = Some ti /\
      (forall k v, aget k r = Some v -> aget k (project (fallback ti) r) = Some v) /\
      forallb (fun kv => mem (fst kv) (csv_header ti)) r = true.
Proof. exact generated_row_fits. Qed.
Print Assumptions C08_generated_row_fits.

(* MultiplexOutputStream, for any kind of stream: if the multiplexed run raises nothing, every
   stream has received exactly the row sequence (its state is that of running alone) *)
Theorem C08_mux_fanout :
  forall (S R : Type) (write : S -> R -> result S) rows ss ss',
    mux_run write ss rows = Ok ss' ->
    Forall2 (fun s s' => run_one write s rows = Ok s') ss ss'.
Proof. intros. apply mux_run_each. assumption. Qed.
Print Assumptions C08_mux_fanout.

(* and the multiplexer adds no failure of its own *)
Theorem C08_mux_complete :
  forall (S R : Type) (write : S -> R -> result S) rows ss ss',
    Forall2 (fun s s' => run_one write s rows = Ok s') ss ss' ->
    mux_run write ss rows = Ok ss'.
Proof. intros. apply mux_run_each. assumption. Qed.
Print Assumptions C08_mux_complete.

(* every value type of the property has an encoder and a writer in every format, integers of
   any size included (sql_int hands the ones beyond 64 bits to the database as text); excluded
   is only what a text file / the database refuses: a string with a lone surrogate outside JSON *)
Theorem C08_encode_total :
  forall f v, encodable f v = true -> exists c, encode f false v = Ok c.
Proof. exact encode_total. Qed.
Print Assumptions C08_encode_total.

(* application layer: a run that reports success AND echoed no "Could not close" has lost
   nothing in any of its outputs *)
Theorem C08_success_means_lossless_partial :
  forall e outs rows ss, env_ok e -> Forall (initial e) outs ->
    app_run e outs rows = Ok (ss, true) -> Forall (complete e rows) ss.
Proof. exact success_means_lossless_partial. Qed.
Print Assumptions C08_success_means_lossless_partial.

(* K9: three rows, one holding a value the database refuses at close time (the string "\ud800"),
   `--dburl sqlite:...`: close() raises inside
   configure_output_stream's try/except, the run reports success, the database is empty; with
   a JSON file and an SQL script next to it, those two are never closed *)
Theorem C08_refuted_close_error_swallowed :
  exists e rows st ss,
    env_ok e /\
    app_run e [init_stream e FDb] rows = Ok ([SDb false st false], false) /\
    total (d_db st) = 0 /\ length rows = 3%nat /\
    (forall crows, cleaned FDb rows = Ok crows -> d_db st <> expected_db (env_tables e) crows) /\
    app_run e (map (init_stream e) [FDb; FJson; FSql]) rows = Ok (ss, false) /\
    map summarise ss = [SumDb true [("A"%string, 0)]; SumFile false 3; SumDb false [("A"%string, 0)]].
Proof. exact success_means_lossless_refuted. Qed.
Print Assumptions C08_refuted_close_error_swallowed.

(* ---- where the schema comes from: the parser ---- *)

(* For every recipe — any number of include files, macros (including macros), templates nested in
   field values or function arguments to any depth, friends, variables — that the parser accepts:
   every template occurring anywhere in any file reachable through include_file was handed to
   TableInfo.register with its table, its update-key flag and ALL its fields (its own and those
   of its macros).  [ms] is the macro dictionary: it holds the macros of every reachable file. *)
Theorem C08_parse_registers_all :
  forall files main regs, parse_recipe files main = Ok regs ->
  exists ms,
    (forall f' m, reach files main f' -> In m (f_macros f') -> In m ms) /\
    forall f' t, reach files main f' -> occ_stmts ms (f_stmts f') t ->
      exists ft, In ft regs /\ t_table ft = tpl_table t /\ t_upd ft = tpl_upd t /\
                 forall f, eff_field ms t f -> In f (t_fields ft).
Proof. exact parse_covers. Qed.
Print Assumptions C08_parse_registers_all.

(* hence every key of every row such a template generates (id, the update-key marker, every
   non-hidden field) is a column of its table in the schema the CSV and SQL outputs are created
   from: DictWriter does not raise and the projection in _flush_rows drops nothing *)
Theorem C08_parse_schema_covers :
  forall files main tables, recipe_schema files main = Ok tables ->
  exists ms,
    (forall f' m, reach files main f' -> In m (f_macros f') -> In m ms) /\
    forall f' t, reach files main f' -> occ_stmts ms (f_stmts f') t -> hidden (tpl_table t) = false ->
      exists ti, aget (tpl_table t) tables = Some ti /\
        forall k, k = "id"%string \/ (tpl_upd t = true /\ k = upd_key) \/ (eff_field ms t k /\ hidden k = false) ->
          In k (fallback ti) /\ In k (csv_header ti).
Proof. exact parse_schema_covers. Qed.
Print Assumptions C08_parse_schema_covers.

(* the fuel parameters of the model's parser (macro expansion depth, include depth) are always
   enough: the model never gives up on a recipe, it accepts it or refuses it like the parser *)
Theorem C08_parse_never_out_of_fuel :
  forall files main, parse_recipe files main <> Err OutOfFuel.
Proof. exact parse_recipe_nofuel. Qed.
Print Assumptions C08_parse_never_out_of_fuel.

(* ---- the formats: reader (writer x) = x ---- *)

(* CSV (csv.writer, excel dialect, QUOTE_MINIMAL, CR LF): for EVERY list of rows of fields of any
   code points — commas, quotes, CR, LF, empty fields, empty rows included — the reader state
   machine returns exactly the rows; so two different tables never give the same file *)
Theorem C08_csv_roundtrip : forall rows : list (list text), csv_read (csv_file rows) = Ok rows.
Proof. exact csv_roundtrip. Qed.
Print Assumptions C08_csv_roundtrip.

Theorem C08_csv_injective : forall a b : list (list text), csv_file a = csv_file b -> a = b.
Proof.
  intros a b H. pose proof (csv_roundtrip a) as Ha. rewrite H, csv_roundtrip in Ha. congruence.
Qed.
Print Assumptions C08_csv_injective.

(* the file of one table: header, then per row the encoder-table cells in header order *)
Theorem C08_csv_file_faithful :
  forall ti raws t, csv_table_text ti raws = Ok t ->
  exists rows, csv_table_rows ti raws = Ok rows /\ csv_read t = Ok rows.
Proof.
  intros ti raws t. unfold csv_table_text. destruct (csv_table_rows ti raws) as [rows|]; cbn [bind]; [|discriminate].
  intros [= <-]. exists rows. split; [reflexivity|apply csv_roundtrip].
Qed.
Print Assumptions C08_csv_file_faithful.

(* str(int) / json / SQL integer literals: every integer, of any size, is read back *)
Theorem C08_int_roundtrip : forall z, parse_int (dec_text z) = Some z.
Proof. exact int_roundtrip. Qed.
Print Assumptions C08_int_roundtrip.

(* JSON (json.dumps with ensure_ascii, JSONOutputStream's framing): for every list of flat objects
   whose keys and string values are Python strs (code points 0 .. 0x10FFFF) without a high
   surrogate immediately followed by a low one, tokenizer + parser return exactly the objects:
   null / true / false / integers of any size / strings with quotes, backslashes, control
   characters, non-ASCII and non-BMP code points, lone surrogates *)
Theorem C08_json_roundtrip :
  forall objs : list jobject, Forall obj_ok objs -> json_read (json_doc objs) = Ok objs.
Proof. exact json_roundtrip. Qed.
Print Assumptions C08_json_roundtrip.

(* the hypothesis is needed: the str made of the surrogates U+D83D U+DE00 and the str U+1F600 are
   written as the same bytes (the first is read back as the second) *)
Theorem C08_refuted_json_surrogate_pair :
  json_string [55357; 56832] = json_string [128512] /\
  json_read (json_doc [[([107], CText [55357; 56832])]]) = Ok [[([107], CText [128512])]].
Proof. split; vm_compute; reflexivity. Qed.
Print Assumptions C08_refuted_json_surrogate_pair.

(* SQL script (sqlite3 iterdump): for every list of rows — table name without a double quote,
   at least one value, values NULL / integers / texts of any code points except NUL (quotes,
   semicolons, newlines, "--" included) — the statement splitter and the INSERT parser return
   exactly the rows *)
Theorem C08_sql_roundtrip :
  forall rows : list (text * list cell), Forall sql_row_ok rows -> sql_read (sql_inserts rows) = Ok rows.
Proof. exact sql_roundtrip. Qed.
Print Assumptions C08_sql_roundtrip.

(* finding C08-sql-script-nul: the hypothesis "no NUL" is needed — SQLite's quote() ends a text at the first NUL
   character, so the script of a row holding "a\0b" is the script of a row holding "a" *)
Theorem C08_refuted_sql_nul_truncates :
  sql_inserts [([65], [CNum 1; CText [97; 0; 98]])] = sql_inserts [([65], [CNum 1; CText [97]])] /\
  sql_read (sql_inserts [([65], [CNum 1; CText [97; 0; 98]])]) = Ok [([65], [CNum 1; CText [97]])].
Proof. split; vm_compute; reflexivity. Qed.
Print Assumptions C08_refuted_sql_nul_truncates.

(* ---- non-vacuity: the real thresholds, straddled ---- *)

(* (rows visible, rows buffered) after n writes with flush_limit 1000 / commit_limit 10000 *)
Definition after_writes (n : Z) : option (Z * Z) :=
  match db_writes (sqlite_accepts FDb) true 1000 10000 (synth_tables 3)
                  (db_init (synth_tables 3)) (synth_rows 3 n) with
  | Ok s => Some (total (d_db s), total (d_buf s))
  | Err _ => None
  end.

Definition after_close (n : Z) : option Z :=
  match db_run (sqlite_accepts FDb) true 1000 10000 (synth_tables 3) (synth_rows 3 n) with
  | Ok s => Some (total (d_db s))
  | Err _ => None
  end.

(* both, for every n (the bound is what SQLite's 64-bit integers leave to the x column) *)
Lemma after_n n : 0 <= n < 2 ^ 63 ->
  after_writes n = Some (1000 * (n / 1000), n mod 1000) /\ after_close n = Some n.
Proof.
  intros N. unfold after_writes, after_close.
  destruct (synth_counts FDb true 1000 10000 3 n) as ((s & -> & -> & ->) & (s' & -> & ->));
    auto; try lia.
  exists 10. reflexivity.
Qed.

Example C08_ex_999 : after_writes 999 = Some (0, 999) /\ after_close 999 = Some 999.
Proof. apply (after_n 999). lia. Qed.
Example C08_ex_1000 : after_writes 1000 = Some (1000, 0) /\ after_close 1000 = Some 1000.
Proof. apply (after_n 1000). lia. Qed.
Example C08_ex_1001 : after_writes 1001 = Some (1000, 1) /\ after_close 1001 = Some 1001.
Proof. apply (after_n 1001). lia. Qed.
Example C08_ex_9999 : after_writes 9999 = Some (9000, 999) /\ after_close 9999 = Some 9999.
Proof. apply (after_n 9999). lia. Qed.
Example C08_ex_10000 : after_writes 10000 = Some (10000, 0) /\ after_close 10000 = Some 10000.
Proof. apply (after_n 10000). lia. Qed.
Example C08_ex_10001 : after_writes 10001 = Some (10000, 1) /\ after_close 10001 = Some 10001.
Proof. apply (after_n 10001). lia. Qed.

(* the projection drops a key that is not a column and fills a missing one with NULL *)
Example C08_ex_project :
  project ["x"; "y"; "id"]%string [("id"%string, VInt 1); ("extra"%string, VInt 7); ("x"%string, VInt 0)]
  = [("x"%string, VInt 0); ("y"%string, VNull); ("id"%string, VInt 1)].
Proof. vm_compute. reflexivity. Qed.

(* schema of two heterogeneous templates of one table, one of them with an update key *)
Example C08_ex_schema :
  infer [mkT "A" ["x"; "__h"; "y"]%string false; mkT "__H" ["q"%string] false; mkT "A" ["y"; "z"]%string true]
  = [("A"%string, mkTI ["x"; "y"; "z"]%string true)].
Proof. vm_compute. reflexivity. Qed.

(* a clean run over three outputs satisfies the hypotheses of the partial theorem *)
Example C08_ex_clean_run :
  let e := mkEnv (infer [mkT "A" ["v"%string] false]) 1000 10000 in
  exists ss, app_run e (map (init_stream e) [FDb; FJson; FCsv])
                     [("A"%string, [("id"%string, VInt 1); ("v"%string, VBool true)])] = Ok (ss, true).
Proof. eexists. vm_compute. reflexivity. Qed.

(* the encoder table at work (DESIGN.md appendix B): a datetime with microseconds and offset *)
Example C08_ex_encode_dt :
  encode FCsv false (VDateTime 2020 2 29 5 6 7 123 (Some (-330)))
  = Ok (CText (text_of_string "2020-02-29T05:06:07-05:30")) /\
  encode FJson false (VDateTime 2020 2 29 5 6 7 123 (Some (-330)))
  = Ok (CText (text_of_string "2020-02-29 05:06:07.000123-05:30")) /\
  encode FJson false (VBool true) = Ok (CBool true) /\
  encode FDb false (VBool true) = Ok (CText [49]) /\
  encode FCsv false VNull = Ok (CText []) /\
  encode FDb false (VInt (2 ^ 63)) = Ok (CText (text_of_string "9223372036854775808")) /\
  encode FSql false (VRef "B" (2 ^ 70)) = Ok (CText (text_of_string "1180591620717411303424")) /\
  encode FDb false (VStr [55296]) = Err (Internal "UnicodeEncodeError").
Proof. repeat split; vm_compute; reflexivity. Qed.

(* ---- non-vacuity: parser and formats ---- *)

(* include file + macro (with a friend and a nested template) + template nested in function
   arguments: six registered templates; the macro's field reaches the including template *)
Example C08_ex_parse :
  parse_recipe
    [("inc.yml"%string,
      mkF [] [mkM "m" [] (FCons "mf" FVSimple (FCons "mn" (FVObj (Tpl "C" false [] (FCons "deep" FVSimple FNil) SNil)) FNil))
                  (SObj (Tpl "D" false [] (FCons "ff" FVSimple FNil) SNil) SNil)]
          (SObj (Tpl "A" false [] (FCons "Name" FVSimple FNil) SNil) SNil))]
    (mkF ["inc.yml"%string] []
         (SObj (Tpl "A" true ["m"%string]
                    (FCons "own" FVSimple
                      (FCons "two" (FVArgs (VCons (FVObj (Tpl "B" false [] (FCons "b1" FVSimple FNil) SNil))
                                           (VCons (FVObj (Tpl "B" false [] (FCons "b2" FVSimple FNil) SNil)) VNil))) FNil))
                    SNil) SNil))
  = Ok [mkT "A" ["Name"%string] false; mkT "C" ["deep"%string] false; mkT "D" ["ff"%string] false;
        mkT "B" ["b1"%string] false; mkT "B" ["b2"%string] false;
        mkT "A" ["mf"; "mn"; "own"; "two"]%string true].
Proof. vm_compute. reflexivity. Qed.

(* a macro that includes itself and an include file that includes itself are refused *)
Example C08_ex_parse_refused :
  parse_recipe [] (mkF [] [mkM "m" ["m"%string] FNil SNil] (SObj (Tpl "A" false ["m"%string] FNil SNil) SNil))
    = Err (DGE "Macro calls itself") /\
  parse_recipe [("a.yml"%string, mkF ["a.yml"%string] [] SNil)] (mkF ["a.yml"%string] [] SNil)
    = Err (DGE "Include file includes itself").
Proof. split; vm_compute; reflexivity. Qed.

(* the bytes of a CSV file with a quoting-hostile row, a single empty field and an empty row *)
Example C08_ex_csv :
  csv_file [[[97; 44; 98]; [34]; []]; [[]]; []]
  = [34; 97; 44; 98; 34; 44; 34; 34; 34; 34; 44; 13; 10;  34; 34; 13; 10;  13; 10].
Proof. vm_compute. reflexivity. Qed.

(* one object in a document: a quote, a non-ASCII letter, a non-BMP code point (written as a
   surrogate pair) and a newline inside a string; null; true *)
Example C08_ex_json :
  json_doc [[([105; 100], CNum 1); ([115], CText [34; 233; 128512; 10]); ([110], CNull); ([98], CBool true)]]
  = text_of_string "[{""id"": 1, ""s"": ""\""\u00e9\ud83d\ude00\n"", ""n"": null, ""b"": true}]" ++ [10].
Proof. vm_compute. reflexivity. Qed.

(* INSERT INTO "A" VALUES(1,'it''s; --',NULL) *)
Example C08_ex_sql :
  sql_insert [65] [CNum 1; CText (text_of_string "it's; --"); CNull]
  = text_of_string "INSERT INTO ""A"" VALUES(1,'it''s; --',NULL)".
Proof. vm_compute. reflexivity. Qed.

(* Round 4: every cell is encoded from its own value.  A cache in front of an encoder that finds entries by a
   key equality [keq] -- with ANY eviction policy and ANY (sound) contents left by earlier runs in the process --
   writes, for EVERY value sequence, exactly what the encoder writes, provided [keq] only identifies values the
   encoder writes alike ... *)
Theorem C08_value_cache_faithful :
  forall (keq : value -> value -> bool) (enc : value -> result cell) evict,
    (forall a b, keq a b = true -> enc a = enc b) ->
    (forall c, incl (evict c) c) ->
    forall vs c, cache_sound enc c ->
      fst (memo_run keq enc evict c vs) = map enc vs /\ cache_sound enc (snd (memo_run keq enc evict c vs)).
Proof. exact memo_run_faithful. Qed.
Print Assumptions C08_value_cache_faithful.

(* ... and that proviso is necessary (already for runs of two values from an empty cache) *)
Theorem C08_value_cache_needs_keys_respecting_encoding :
  forall keq enc,
    (forall a b, fst (memo_run keq enc (fun c => c) [] [a; b]) = [enc a; enc b]) ->
    forall a b, keq a b = true -> enc a = enc b.
Proof.
  intros keq enc H a b E. specialize (H a b). unfold memo_run, memo_cell in H. cbn [memo_find] in H.
  rewrite E in H. cbn [fst] in H. inversion H. reflexivity.
Qed.
Print Assumptions C08_value_cache_needs_keys_respecting_encoding.

(* Python's == is NOT such an equality: one instant in two UTC offsets (the seeded change r4_C08_1: lru_cache on
   format_datetime) within one run; True after an earlier run wrote 1 (JSON) *)
Definition utc1230 := VDateTime 2021 3 4 12 30 0 0 (Some 0).
Definition ist1800 := VDateTime 2021 3 4 18 0 0 0 (Some 330).

Example C08_ex_py_eq_twins : py_eq utc1230 ist1800 = true /\ py_eq (VBool true) (VInt 1) = true.
Proof. vm_compute. split; reflexivity. Qed.

Example C08_value_cache_by_python_equality_refuted :
  fst (memo_run py_eq (encode FCsv false) (fun c => c) [] [utc1230; ist1800])
    <> map (encode FCsv false) [utc1230; ist1800]
  /\ fst (memo_run py_eq (encode FJson false) (fun c => c) [(VInt 1, encode FJson false (VInt 1))] [VBool true])
    <> map (encode FJson false) [VBool true].
Proof. split; vm_compute; intro H; discriminate H. Qed.
