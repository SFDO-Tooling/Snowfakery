(* C09 — names starting with two underscores never reach any output.
   Model: theories/Interp.v.  Proofs: proofs/InterpP.v.                                  *)
From Coq Require Import ZArith List.
From SFV Require Import Base Interp.
From SFV.P Require Import InterpP InterpHeapP.
Import ListNotations. Open Scope Z_scope. Open Scope string_scope.

(* For every recipe of the fragment and every iteration count: every row handed to the
   output stream has a visible table name and only visible field names. *)
Theorem C09_hidden_never_emitted :
  forall (r : recipe) (k : nat) (rows : list orow),
    run_rows r k = Ok rows -> Forall clean_row rows.
Proof. exact hidden_never_emitted. Qed.
Print Assumptions C09_hidden_never_emitted.

(* Every task of the evaluator only appends clean rows to the output. *)
Theorem C09_every_step_clean :
  forall fuel e tk s s' r, run fuel e tk s = Ok (s', r) -> extends s s'.
Proof. exact run_extends. Qed.
Print Assumptions C09_every_step_clean.

(* The written row carries exactly the visible fields of the stored row, in stored order,
   after "id": hidden fields are dropped by the write primitive and by nothing else. *)
Theorem C09_write_filters_only_hidden :
  forall s h s',
    write_row s h = Ok s' ->
    out s' = out s \/
    exists r, out s' = r :: out s /\ clean_row r /\
      exists c, nth_error (heap s) h = Some c /\ fst r = c_table c /\
        map fst (snd r) = "id"%string :: filter (fun n => negb (hidden n)) (map fst (c_fields c)).
Proof. exact write_row_spec. Qed.
Print Assumptions C09_write_filters_only_hidden.

(* "Its value is nevertheless computed exactly like a visible one": for EVERY field name other
   than `id` — hidden or not — the evaluator renders the definition, stores the value under
   the name and goes on; the name is used for nothing else ... *)
Theorem C09_hidden_field_computed_like_visible :
  forall n e h name d r s,
    String.eqb name "id" = false ->
    run (S n) e (TFields h ((name, d) :: r)) s =
    (do '(s1, v) <- run n e (TField d) s; run n e (TFields h r) (set_field s1 h name (ret_value v))).
Proof. intros n e h name d r s H. cbn [run]. rewrite H. reflexivity. Qed.
Print Assumptions C09_hidden_field_computed_like_visible.

(* ... and later formulas / references read it back exactly as stored, whatever the name *)
Theorem C09_hidden_field_readable :
  forall s h name v c,
    String.eqb name "id" = false -> nth_error (heap s) h = Some c ->
    exists c', nth_error (heap (set_field s h name v)) h = Some c' /\ row_attr c' name = Some v /\
               same_key c c'.
Proof. exact stored_field_readable. Qed.
Print Assumptions C09_hidden_field_readable.

(* child objects created inside a (hidden) field are emitted: rendering a field that holds an
   object template emits that template's rows regardless of the field's name — the rows of
   the nested template precede the enclosing row (C03_nested_before_parent_friends_after) *)

(* non-vacuity: a hidden field feeding a visible formula, and a visible child created inside
   a hidden field, are computed / emitted; the hidden names are not. *)
Example C09_ex :
  run_rows (mkRecipe 3 []
    [SObj (Tpl "A" None None false
        [("__h0", FLitInt 5);
         ("f0", FFormula [PExpr (EAdd (EVar "__h0") (EInt 1))]);
         ("__h1", FNested (Tpl "B" None None false [("f1", FLitInt 7)] []))] []);
     SObj (Tpl "__H" None None false [("f0", FLitInt 1)] [])] []) 1
  = Ok [("B", [("id", OInt 1); ("f1", OInt 7)]); ("A", [("id", OInt 1); ("f0", OInt 6)])].
Proof. vm_compute. reflexivity. Qed.

(* ---- a hidden TABLE is computed exactly like a visible one (proofs/HiddenRowsP.v) ---- *)
From SFV.P Require Import IdsP HiddenRowsP.

(* For every table, hidden or not, the rows created by a run (fresh or continued) of any recipe of
   the fragment carry exactly the next block of ids of that table, each once: ids, counts and
   whatever depends on them do not notice that the table is hidden. *)
Theorem C09_every_table_rows_created_dense :
  forall e stmts c k s0 s,
    start_ok s0 -> iterations k e stmts c s0 = Ok s ->
    forall T, Permutation.Permutation
                (cell_ids T (skipn (length (heap s0)) (heap s)))
                (Zseq (last_id s0 T + 1) (Z.to_nat (last_id s T - last_id s0 T))).
Proof. intros e stmts c k s0 s Hs0 H T. apply (run_cells Hs0 H). Qed.
Print Assumptions C09_every_table_rows_created_dense.

(* A hidden table's rows are all created (as many as its counter advances) and none is written. *)
Theorem C09_hidden_rows_created_not_written :
  forall e stmts c k s0 s T,
    start_ok s0 -> iterations k e stmts c s0 = Ok s -> hidden T = true ->
    Z.of_nat (length (cell_ids T (skipn (length (heap s0)) (heap s)))) = last_id s T - last_id s0 T /\
    forall row, In row (out s) -> fst row <> T.
Proof. exact hidden_rows_created_not_written. Qed.
Print Assumptions C09_hidden_rows_created_not_written.

(* ---- hidden fields read THROUGH a random_reference (LazyLoadedObjectReference -> RowHistory.load_row) ---- *)

(* Whatever the field is called - hidden or visible - reading it through a random_reference to a row
   of this run's history gives the value the row itself has (child rows included; forward-reference
   slots, which the history flattens, aside). *)
Theorem C09_field_through_random_reference_is_the_rows_field :
  forall h cells c f w,
    find_cell (c_table c) (c_id c) cells = Some c ->
    in_history h (c_table c) (c_id c) = true ->
    py_own_attr f || String.eqb f "sql_tablename" || String.eqb f "_data" = false ->
    row_attr c f = Some w -> (forall n, w <> VSlot n) ->
    hist_attr h cells (c_table c) (c_id c) f = Ok w.
Proof. exact hist_attr_live. Qed.
Print Assumptions C09_field_through_random_reference_is_the_rows_field.

Theorem C09_missing_field_through_random_reference_is_an_error :
  forall h cells c f,
    find_cell (c_table c) (c_id c) cells = Some c ->
    in_history h (c_table c) (c_id c) = true ->
    py_own_attr f || String.eqb f "sql_tablename" || String.eqb f "_data" = false ->
    row_attr c f = None ->
    hist_attr h cells (c_table c) (c_id c) f = Err (DGE "history-attr").
Proof.
  intros h cells c f Hc Hh Hown Hw. unfold hist_attr, row_attr in *.
  destruct (String.eqb f "id"); [discriminate|].
  rewrite Hown, Hh, Hc, Hw. reflexivity.
Qed.
Print Assumptions C09_missing_field_through_random_reference_is_an_error.

(* non-vacuity, through the whole interpreter: a child row parked in a hidden field of a
   random_reference target is reached through the picked reference (draw 0 = the only row) *)
Example C09_hidden_child_through_random_reference :
  run_rows (mkRecipe 3 []
    [SObj (Tpl "P" None None false
        [("__kid", FNested (Tpl "K" None None false [("k", FLitInt 8)] [])); ("__n", FLitInt 17)] []);
     SObj (Tpl "D" None None false
        [("__who", FRandRef "P");
         ("a", FFormula [PExpr (EAttr (EAttr (EVar "__who") "__kid") "k")]);
         ("c", FFormula [PExpr (EAttr (EVar "__who") "__n")])] [])] [0]) 1
  = Ok [("K", [("id", OInt 1); ("k", OInt 8)]); ("P", [("id", OInt 1)]);
        ("D", [("id", OInt 1); ("a", OInt 8); ("c", OInt 17)])].
Proof. vm_compute. reflexivity. Qed.

(* the premise "the lookup finds the row" holds in every state a fresh run reaches: ids are per table
   and never handed out twice (C01), so the row with that table and id is that row *)
Theorem C09_fresh_run_lookup_finds_the_row :
  forall r k s c, run_fresh r k = Ok s -> In c (heap s) ->
    find_cell (c_table c) (c_id c) (heap s) = Some c.
Proof. exact fresh_run_lookup_finds_the_row. Qed.
Print Assumptions C09_fresh_run_lookup_finds_the_row.

Theorem C09_fresh_run_field_through_random_reference :
  forall r k s c f w,
    run_fresh r k = Ok s -> In c (heap s) ->
    in_history (hist (rnd s)) (c_table c) (c_id c) = true ->
    py_own_attr f || String.eqb f "sql_tablename" || String.eqb f "_data" = false ->
    row_attr c f = Some w -> (forall n, w <> VSlot n) ->
    hist_attr (hist (rnd s)) (heap s) (c_table c) (c_id c) f = Ok w.
Proof.
  intros r k s c f w H Hin Hh Hown Hw Hns. apply hist_attr_live; try assumption.
  eapply fresh_run_lookup_finds_the_row; eassumption.
Qed.
Print Assumptions C09_fresh_run_field_through_random_reference.
