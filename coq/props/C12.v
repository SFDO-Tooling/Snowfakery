(* C12 — the randomised range is a permutation, also when extended.
   Model: theories/RandRange.v (snowfakery/utils/randomized_range.py).
   The statements; the lemmas they follow from are in proofs/LcgP.v and proofs/RandRangeP.v. *)
From Coq Require Import ZArith List Permutation.
From SFV Require Import Base RandRange.
From SFV.P Require Import LcgP RandRangeP.
Import ListNotations. Open Scope Z_scope.

(* Hull–Dobell for a power-of-two modulus: every residue is hit once per period. *)
Theorem C12_lcg_full_period :
  forall (a c : Z) (k : nat), a mod 4 = 1 -> Z.odd c = true ->
  forall x, 0 <= x < 2 ^ Z.of_nat k ->
    NoDup (orbit a c (2 ^ Z.of_nat k) (Z.to_nat (2 ^ Z.of_nat k)) x) /\
    forall y, 0 <= y < 2 ^ Z.of_nat k ->
              In y (orbit a c (2 ^ Z.of_nat k) (Z.to_nat (2 ^ Z.of_nat k)) x).
Proof. exact full_period. Qed.
Print Assumptions C12_lcg_full_period.

(* list(random_range(start, stop)) terminates within the model's fuel and is a permutation
   of [start, stop), for every value of the generator's two random draws. *)
Theorem C12_range_is_permutation :
  forall start stop v0 o0,
    start < stop -> 0 <= v0 <= stop - start -> 0 <= o0 <= stop - start ->
    exists l, random_range_list start stop v0 o0 = Ok l /\
              Permutation l (Zseq start (Z.to_nat (stop - start))).
Proof. exact range_is_permutation. Qed.
Print Assumptions C12_range_is_permutation.

(* Any script of next / set_new_range operations that the class accepts never produces a
   value twice (for every oracle stream of draws). *)
Theorem C12_updatable_no_repeat :
  forall start stop oracle ops tr,
    urr_script start stop oracle ops = Ok tr -> NoDup (produced tr).
Proof. exact updatable_no_repeat. Qed.
Print Assumptions C12_updatable_no_repeat.

(* Raising the bound while consuming: when the iterator finally stops, exactly the
   integers of [start, final bound) have been produced. *)
Theorem C12_extend_complete :
  forall start stop oracle ops u tr u1 u2,
    urr_init start stop oracle = Ok u -> extend_only start ops ->
    urr_run u ops = Ok (tr, u1) -> urr_next u1 = Ok (None, u2) ->
    Permutation (produced tr) (Zseq start (Z.to_nat (u_cur_max u1 - start))) /\
    stop <= u_cur_max u1.
Proof. exact extend_complete. Qed.
Print Assumptions C12_extend_complete.

(* Moving to a disjoint higher range: only values of the new range appear afterwards. *)
Theorem C12_move_only_new :
  forall u prev em a b u1 ops tr u2,
    Uinv u prev em -> a <> u_start u -> urr_set_new_range u a b = Ok u1 ->
    extend_only a ops -> urr_run u1 ops = Ok (tr, u2) ->
    forall v, In v (produced tr) -> a <= v < u_cur_max u2.
Proof. intros u prev em a b u1 ops tr u2 _. apply move_only_new. Qed.
Print Assumptions C12_move_only_new.

(* Every state reachable from the constructor satisfies the invariant used above. *)
Theorem C12_reachable_invariant :
  forall start stop oracle u,
    urr_init start stop oracle = Ok u -> Uinv u [] [].
Proof.
  intros start stop oracle u. unfold urr_init. destruct (negb (start <? stop)); [discriminate|]. intros H.
  pose proof (set_immediately_inv start stop oracle) as S. rewrite H in S. apply S.
Qed.
Print Assumptions C12_reachable_invariant.

(* ---- non-vacuity: concrete runs that satisfy the hypotheses ---- *)
Example C12_ex_range :
  random_range_list 3 10 7 2 = Ok [3; 8; 9; 6; 7; 4; 5].
Proof. vm_compute. reflexivity. Qed.

Example C12_ex_script :
  urr_script 1 3 [(0, 0); (1, 1); (2, 0); (0, 1)]
             [UNext; USet 1 5; UNext; UNext; USet 1 7; UNext; UNext; UNext; UNext; UNext;
              USet 9 11; UNext; UNext; UNext]
  = Ok [Some 1; Some 2; Some 4; Some 3; Some 6; Some 5; None; None; Some 9; Some 10; None].
Proof. vm_compute. reflexivity. Qed.
