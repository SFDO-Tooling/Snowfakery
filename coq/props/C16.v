(* C16 — the generated CCI mapping is complete and loads parents before children.
   Model: theories/Mapping.v (snowfakery/generate_mapping_from_recipe.py,
   cci_mapping_files/post_processes.py, dependency recording / persistence of
   data_generator_runtime.py, TableInfo.register of parse_recipe_yaml.py).
   Statements here; each follows in a few lines from the lemmas of proofs/MappingP.v. *)
From Coq Require Import String List Arith.
From SFV Require Import Base Mapping.
From SFV.P Require Import MappingP.
Import ListNotations.
Open Scope string_scope. Open Scope list_scope. Open Scope nat_scope.

(* The `while tables` loop always ends within the model's fuel (2 * number of tables + 1 passes:
   every pass sorts at least one table, or appends one that the next pass removes), for all
   dependency dictionaries — cyclic, with unknown targets, with the nested declared-only re-sort —
   and never fails. *)
Theorem C16_sort_terminates :
  forall inferred declared tables, exists l, sort_dependencies inferred declared tables = Ok l.
Proof. exact sort_terminates. Qed.
Print Assumptions C16_sort_terminates.

(* Every table occurs in the order and nothing else does (duplicates can occur in the cyclic +
   declared case; steps are placed by first index). *)
Theorem C16_sort_covers :
  forall inferred declared tables l,
    sort_dependencies inferred declared tables = Ok l -> forall t, In t l <-> In t tables.
Proof. exact sort_covers. Qed.
Print Assumptions C16_sort_covers.

(* If the dependency graph (declared entries replacing inferred ones, as the code merges them),
   ignoring self loops, is acyclic ([rank] strictly decreases along every edge) and closed (every
   target is a table), the order has no duplicates and every table comes after all the tables it
   depends on. *)
Theorem C16_sort_sound :
  forall inferred declared tables (rank : string -> nat) l,
    NoDup tables ->
    (forall t x, In t tables -> In x (merged_tg inferred declared t) -> x <> t ->
                 In x tables /\ rank x < rank t) ->
    sort_dependencies inferred declared tables = Ok l ->
    NoDup l /\
    forall t x, In t tables -> In x (merged_tg inferred declared t) -> x <> t ->
      exists i j, index_of x l = Some i /\ index_of t l = Some j /\ i < j.
Proof. intros inferred declared tables rank l Hnd Hg. exact (sort_loop_sound _ _ _ rank Hg _ l Hnd). Qed.
Print Assumptions C16_sort_sound.

(* Exactly one step per (visible table, update key) of the recipe's templates; each step is named
   after its table and key; every visible field of the table ([vfield]: a non-hidden field of some
   template of the table, except Account.PersonContactId) is listed; it is a lookup iff a reference
   to a loaded table was recorded for it ([observed]), with one of the observed targets, and a plain
   field otherwise; no field is listed twice in either section (a record-type column that also held
   references is the one field that appears in both).  Table names are assumed to contain no
   space (step names are "Insert T" / "Upsert T on K"). *)
Theorem C16_steps_complete :
  forall tpls deps decls ms,
    (forall tp, In tp tpls -> has_space (tp_table tp) = false) ->
    mapping_from_recipe tpls deps decls = Ok ms ->
    NoDup (map step_key ms) /\
    (forall t k, In (t, k) (map step_key ms) <->
                 exists tp, In tp tpls /\ hidden (tp_table tp) = false /\
                            tp_table tp = t /\ norm_key (tp_key tp) = k) /\
    forall name m, In (name, m) ms ->
      name = step_name (m_table m) (m_update_key m) /\
      m_sf_object m = (if String.eqb (m_table m) "PersonContact" then "Contact" else m_table m) /\
      NoDup (map lk_field (m_lookups m)) /\ NoDup (map snd (m_fields m)) /\
      (forall l, In l (m_lookups m) ->
         vfield tpls (m_table m) (lk_field l) /\
         observed tpls deps (m_table m) (lk_field l) (lk_table l)) /\
      (forall f, In f (map snd (m_fields m)) ->
         vfield tpls (m_table m) f /\
         ((forall to, ~ observed tpls deps (m_table m) f to) \/ is_rt f = true)) /\
      (forall f, vfield tpls (m_table m) f -> (exists to, observed tpls deps (m_table m) f to) ->
                 In f (map lk_field (m_lookups m))) /\
      (forall f, vfield tpls (m_table m) f -> (forall to, ~ observed tpls deps (m_table m) f to) ->
                 In f (map snd (m_fields m))).
Proof. intros tpls deps decls ms Hns. exact (steps_complete tpls deps decls Hns ms). Qed.
Print Assumptions C16_steps_complete.

(* The table named by a lookup is the target of the last reference recorded for the field. *)
Theorem C16_lookup_target :
  forall tpls deps decls ms name m l,
    (forall tp, In tp tpls -> has_space (tp_table tp) = false) ->
    mapping_from_recipe tpls deps decls = Ok ms -> In (name, m) ms -> In l (m_lookups m) ->
    ref_target (loadable_deps (visible_tables tpls) deps) (m_table m) (lk_field l) = Some (lk_table l).
Proof.
  intros tpls deps decls ms name m l Hns H Hm Hl. destruct (mapping_step _ _ _ Hns _ _ _ H Hm) as [s R].
  exact (proj2 (made_from_lookup _ _ _ R l Hl)).
Qed.
Print Assumptions C16_lookup_target.

(* Parents before children: without load declarations, if the references recorded between loaded
   tables are acyclic apart from self references ([rank] decreases along each), then every step
   that loads the target table of a lookup comes before the step holding the lookup.  (The
   Account -> PersonContact reference is dropped from the sort by design and is excluded.) *)
Theorem C16_parents_first :
  forall tpls deps ms (rank : string -> nat) pre name m post l nj mj,
    (forall tp, In tp tpls -> has_space (tp_table tp) = false) ->
    (forall d, In d deps -> In (d_from d) (visible_tables tpls) -> d_to d <> d_from d ->
               In (d_to d) (visible_tables tpls) \/ d_to d = "PersonContact" ->
               In (d_to d) (visible_tables tpls) /\ rank (d_to d) < rank (d_from d)) ->
    mapping_from_recipe tpls deps [] = Ok ms -> ms = pre ++ (name, m) :: post ->
    In l (m_lookups m) -> lk_table l <> m_table m ->
    ~ (m_table m = "Account" /\ lower (lk_table l) = "personcontact") ->
    In (nj, mj) ms -> m_table mj = lk_table l ->
    In (nj, mj) pre.
Proof. exact parents_first. Qed.
Print Assumptions C16_parents_first.

(* after-rule as add_after_statements establishes it, for every lookup (self references included;
   lookups to the pseudo table PersonContact are skipped by the code): the first step that loads
   the target TABLE comes strictly earlier, or the lookup carries `after:` naming the last such
   step.  (Steps are indexed by table since fix commit ae07041; before it they were indexed by
   sf_object, which let a PersonContact step stand in for the Contact step - former finding K16a.) *)
Theorem C16_after_rule :
  forall tpls deps decls ms pre name m post l,
    mapping_from_recipe tpls deps decls = Ok ms -> ms = pre ++ (name, m) :: post ->
    In l (m_lookups m) -> lk_table l <> "PersonContact" ->
    exists fi ln, first_pos (lk_table l) ms = Some fi /\ last_name (lk_table l) ms = Some ln /\
                  (fi < length pre \/ lk_after l = Some ln).
Proof.
  intros tpls deps decls ms pre name m post l H. destruct (mapping_after _ _ _ _ H) as (ms0 & Hno & Ha).
  exact (after_rule_general _ _ _ _ _ _ _ Hno Ha).
Qed.
Print Assumptions C16_after_rule.

(* ... hence the property's wording, unconditionally: when the target table is loaded by a single
   step, that step is earlier or it is the one named by `after`. *)
Theorem C16_after_rule_by_table :
  forall tpls deps decls ms pre name m post l prej namej mj postj,
    mapping_from_recipe tpls deps decls = Ok ms -> ms = pre ++ (name, m) :: post ->
    In l (m_lookups m) -> lk_table l <> "PersonContact" ->
    ms = prej ++ (namej, mj) :: postj -> m_table mj = lk_table l ->
    (forall nm, In nm prej \/ In nm postj -> m_table (snd nm) <> lk_table l) ->
    length prej < length pre \/ lk_after l = Some namej.
Proof.
  intros tpls deps decls ms pre name m post l prej namej mj postj H Heq Hl Hpc Heqj Hso Hothers.
  destruct (C16_after_rule _ _ _ _ _ _ _ _ _ H Heq Hl Hpc) as (fi & ln & F1 & F2 & F3).
  destruct (unique_first_last _ _ _ _ _ _ _ _ Heqj Hso Hothers F1 F2) as [<- <-]. exact F3.
Qed.
Print Assumptions C16_after_rule_by_table.

(* regression of K16a on its old witness (PersonContact first, cycle A <-> Contact): the lookup
   A.c -> Contact now carries `after: Insert Contact` *)
Definition k16a_tpls : list ftpl :=
  [mkTpl "PersonContact" None ["name"]; mkTpl "A" None ["c"]; mkTpl "Contact" None ["a"]].
Definition k16a_deps : list dep := [mkDep "A" "Contact" "c"; mkDep "Contact" "A" "a"].

Example C16_ex_k16a_repaired :
  mapping_from_recipe k16a_tpls k16a_deps []
  = Ok [("Insert PersonContact",
         mkStep "Contact" "PersonContact" [("name", "name")] [] [] None None []);
        ("Insert A", mkStep "A" "A" [] [mkLk "c" "Contact" (Some "Insert Contact")] [] None None []);
        ("Insert Contact", mkStep "Contact" "Contact" [] [mkLk "a" "A" None] [] None None [])].
Proof. vm_compute. reflexivity. Qed.

(* Writing the recorded dependencies to a continuation file and loading them back, at any points of
   the history, does not change them ... *)
Theorem C16_deps_persist :
  forall evs, run_events evs [] = run_events (filter is_obs evs) [].
Proof. intros evs. apply deps_persist. constructor. Qed.
Print Assumptions C16_deps_persist.

(* ... so the mapping of a recipe is the same whether or not the run was continued: it is a function
   of the templates, the declarations and the sequence of references observed. *)
Theorem C16_mapping_history_independent :
  forall tpls decls evs,
    mapping_from_recipe tpls (run_events evs []) decls =
    mapping_from_recipe tpls (run_events (filter is_obs evs) []) decls.
Proof. intros. rewrite (deps_persist evs [] (NoDup_nil _)). reflexivity. Qed.
Print Assumptions C16_mapping_history_independent.

(* The order in which the references were observed does not matter either, as long as every
   (table, field) pair only ever referred to one table: the mapping is a function of the SET of
   recorded dependencies. *)
Theorem C16_mapping_set_independent :
  forall tpls deps1 deps2 decls,
    functional deps1 -> (forall d, In d deps1 <-> In d deps2) ->
    mapping_from_recipe tpls deps1 decls = mapping_from_recipe tpls deps2 decls.
Proof. exact mapping_set_independent. Qed.
Print Assumptions C16_mapping_set_independent.

(* Regression of K6 (commit 51666fd): mapping generation never fails (no KeyError in
   add_after_statements, no ValueError in the step sort, no fuel exhaustion) for any recorded
   dependencies — also to hidden tables and unknown objects — provided no table has two record-type
   columns (which is reported as DataGenError). *)
Theorem C16_mapping_total :
  forall tpls deps decls,
    (forall tp, In tp tpls -> has_space (tp_table tp) = false) ->
    (forall t f1 f2, vfield tpls t f1 -> vfield tpls t f2 ->
                     is_rt f1 = true -> is_rt f2 = true -> f1 = f2) ->
    exists ms, mapping_from_recipe tpls deps decls = Ok ms.
Proof. exact mapping_total. Qed.
Print Assumptions C16_mapping_total.

Example C16_ex_sort_cycle_declared :   (* cyclic + declared: duplicates in the order *)
  sort_dependencies [("A", ["B"]); ("B", ["A"])] [("C", ["A"])] ["A"; "B"; "C"]
  = Ok ["A"; "B"; "C"; "A"; "B"; "C"].
Proof. vm_compute. reflexivity. Qed.

Example C16_ex_sort_unloaded_targets :  (* 2 passes per table: fuel n+1 would not suffice *)
  sort_loop (tg_of [("A", ["Zed"]); ("B", ["Zed"]); ("C", ["Zed"])]) stuck_min 4 ["A"; "B"; "C"] []
  = Err OutOfFuel /\
  sort_dependencies [("A", ["Zed"]); ("B", ["Zed"]); ("C", ["Zed"])] [] ["A"; "B"; "C"]
  = Ok ["A"; "B"; "C"].
Proof. split; vm_compute; reflexivity. Qed.

Example C16_ex_sort_acyclic :
  sort_dependencies [("A", ["B"; "A"]); ("B", ["C"])] [] ["A"; "B"; "C"] = Ok ["C"; "B"; "A"].
Proof. vm_compute. reflexivity. Qed.

Example C16_ex_mapping :   (* self reference, 2-cycle, forward reference, hidden target, upsert *)
  mapping_from_recipe
    [mkTpl "A" None ["self"; "b"; "h"]; mkTpl "B" (Some "name") ["name"; "a"; "__x"]; mkTpl "__H" None ["q"]]
    (run_events [Obs (mkDep "A" "A" "self"); Obs (mkDep "A" "B" "b"); Obs (mkDep "A" "__H" "h");
                 SaveLoad; Obs (mkDep "B" "A" "a"); Obs (mkDep "A" "B" "b")] [])
    []
  = Ok [("Insert A", mkStep "A" "A" [("h", "h")]
                            [mkLk "self" "A" (Some "Insert A"); mkLk "b" "B" (Some "Upsert B on name")]
                            [] None None []);
        ("Upsert B on name", mkStep "B" "B" [("name", "name")] [mkLk "a" "A" None] []
                                    (Some "upsert") (Some "name") ["_sf_update_key = 'name'"])].
Proof. vm_compute. reflexivity. Qed.

(* The input of the mapping generator, tied to the rows (theories/Interp.v, proofs/DepsP.v).

   The theorems above take the recorded dependencies (Globals.intertable_dependencies) as an input.
   Over the SF-core interpreter that input is itself characterised: every reference cell of every
   row a run writes - from `reference`, nested objects, friends, forward references, random
   references - has its (table, target table, field) triple recorded by the end of the task that
   wrote it, so "a lookup if any emitted row held a reference in that field" can be read off the
   rows; and nothing recorded is ever dropped (continued runs start from the dependencies of the
   file, C05). *)
From SFV Require Import Interp.
From SFV.P Require Import DepsP.

Theorem C16_interp_written_references_recorded :
  forall e stmts c k s0 s,
    Interp.out s0 = [] -> iterations k e stmts c s0 = Ok s ->
    forall row f U i, In row (Interp.out s) -> In (f, ORef U i) (snd row) ->
                      In (fst row, U, f) (Interp.deps s).
Proof. exact written_references_recorded. Qed.
Print Assumptions C16_interp_written_references_recorded.

Theorem C16_interp_written_references_recorded_fresh :
  forall (r : recipe) k s,
    run_fresh r k = Ok s ->
    forall row f U i, In row (Interp.out s) -> In (f, ORef U i) (snd row) ->
                      In (fst row, U, f) (Interp.deps s).
Proof. exact written_references_recorded_fresh. Qed.
Print Assumptions C16_interp_written_references_recorded_fresh.

(* the invariant behind it, for every task of the evaluator: recorded dependencies only grow, and
   "every written reference cell is recorded" is preserved *)
Theorem C16_interp_invariant_step :
  forall fuel e tk s s' r,
    run fuel e tk s = Ok (s', r) -> incl (Interp.deps s) (Interp.deps s') /\ (R s -> R s').
Proof. exact run_deps. Qed.
Print Assumptions C16_interp_invariant_step.

Theorem C16_interp_dependencies_persist :
  forall e stmts c k s0 s,
    iterations k e stmts c s0 = Ok s -> incl (Interp.deps s0) (Interp.deps s).
Proof. exact recorded_dependencies_persist. Qed.
Print Assumptions C16_interp_dependencies_persist.

(* The converse: nothing is recorded without a cell.  Every dependency a run adds between a visible
   table and a visible field is backed by a reference cell of a row it wrote; so a field that never
   held a reference in any written row is not made a lookup by this run ("a plain field otherwise"). *)
Theorem C16_interp_recorded_dependencies_backed :
  forall e stmts c k s0 s,
    iterations k e stmts c s0 = Ok s ->
    forall T U f, In (T, U, f) (Interp.deps s) ->
      In (T, U, f) (Interp.deps s0) \/ Interp.hidden T = true \/ Interp.hidden f = true \/
      exists row i, In row (Interp.out s) /\ fst row = T /\ In (f, ORef U i) (snd row).
Proof. exact recorded_dependencies_backed. Qed.
Print Assumptions C16_interp_recorded_dependencies_backed.

(* non-vacuity: a forward reference, a nested object and a friend pointing back at its parent *)
Example C16_interp_ex :
  match run_fresh (mkRecipe 3 []
          [SObj (Tpl "A" None None false [("b", FRef "B"); ("n", FNested (Tpl "C" None None false [] []))]
                     [SObj (Tpl "D" None None false [("parent", FRef "A")] [])]);
           SObj (Tpl "B" None None false [] [])] []) 2 with
  | Ok s => Interp.deps s
  | Err _ => []
  end = [("A", "B", "b"); ("A", "C", "n"); ("D", "A", "parent")].
Proof. vm_compute. reflexivity. Qed.
