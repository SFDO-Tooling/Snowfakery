(* C17 — datasets are iterated faithfully: in order, cyclically, or exactly once.
   Model: theories/Datasets.v (snowfakery/plugins.py PluginResultIterator, standard_plugins/
   datasets.py, data_generator_runtime_object_model.py for_each / _generate_fields,
   parse_recipe_yaml.py build_update_recipe).  The statements; the lemmas they follow from are in proofs/DatasetsP.v.
   Records are an arbitrary type R: the model never looks inside a record, so "every column
   intact" is "the same R comes out".  Shuffles are driven by an arbitrary oracle stream. *)
From Coq Require Import ZArith List Permutation.
From SFV Require Import Base Datasets.
From SFV.P Require Import DatasetsP.
Import ListNotations. Open Scope Z_scope.

(* Dataset.iterate: the k-th draw (0-based) of a repeating linear iterator over n > 0 records is
   record k mod n — for every k, every record type, and it uses no randomness. *)
Theorem C17_iterate_mod_n :
  forall (R : Type) (data : list R) (orc : list Z) (k : nat) (nm : option nat),
    data <> [] ->
    exists it l it',
      new_iter R (mkDs data Linear true nm) orc = Ok (it, orc) /\
      draw_seq R k it orc = Ok (l, it', orc) /\
      length l = k /\
      forall j, (j < k)%nat -> nth_error l j = nth_error data (j mod length data).
Proof.
  intros R data orc k nm Hne.
  exact (iterate_mod_n R (mkDs data Linear true nm) orc k eq_refl eq_refl Hne).
Qed.
Print Assumptions C17_iterate_mod_n.

(* Dataset.shuffle (and iterate): draws c*n .. c*n+n-1 of a repeating iterator are a permutation
   of the n records, for every cycle c and every oracle stream under which the run succeeds. *)
Theorem C17_shuffle_cycle_perm :
  forall (R : Type) (d : dsref R) (c : nat) orc it orc1 l it' orc',
    d_repeat R d = true -> d_data R d <> [] ->
    new_iter R d orc = Ok (it, orc1) ->
    draw_seq R (c * length (d_data R d) + length (d_data R d)) it orc1 = Ok (l, it', orc') ->
    Permutation (firstn (length (d_data R d)) (skipn (c * length (d_data R d)) l)) (d_data R d).
Proof.
  intros R d c orc it orc1 l it' orc' Hrp Hne Hnew.
  destruct (new_iter_inv R _ _ _ _ Hnew) as (rest & -> & Hp & _). rewrite Hrp.
  apply (cycles_perm R d c Hne rest). right. exact Hp.
Qed.
Print Assumptions C17_shuffle_cycle_perm.

(* ... and such a run never fails except by an unusable oracle (a model artefact: a draw outside
   [0,i] or a stream that is too short); in particular it never reports exhaustion. *)
Theorem C17_repeating_never_fails :
  forall (R : Type) (d : dsref R) orc it orc1 k e,
    d_repeat R d = true -> d_data R d <> [] -> new_iter R d orc = Ok (it, orc1) ->
    draw_seq R k it orc1 = Err e -> e = BadOracle.
Proof.
  intros R d orc it orc1 k e Hrp Hne Hnew. destruct (new_iter_inv R _ _ _ _ Hnew) as (rest & -> & _).
  rewrite Hrp. apply draw_seq_err_repeat, Hne.
Qed.
Print Assumptions C17_repeating_never_fails.

(* random.shuffle as modelled accepts every stream of in-range draws and returns a permutation *)
Theorem C17_shuffle_is_permutation :
  forall (R : Type) (l : list R) orc,
    (good_draws (Nat.pred (length l)) orc -> exists l' orc', shuffle R l orc = Ok (l', orc')) /\
    (forall l' orc', shuffle R l orc = Ok (l', orc') -> Permutation l' l).
Proof. intros R l orc. split; [apply shuffle_total|apply shuffle_perm]. Qed.
Print Assumptions C17_shuffle_is_permutation.

(* Which evaluations share an iterator (plugins.evaluate_memorable_function): the state key of a
   call is its `name` together with the function called when the name is given, else the call
   site.  Two calls have the same key exactly when both are named alike and call the same
   function, or are the same unnamed call site. *)
Theorem C17_memo_key_shared :
  forall (R : Type) s1 (d1 : dsref R) s2 (d2 : dsref R),
    key_of R s1 d1 = key_of R s2 d2 <->
    match d_name R d1, d_name R d2 with
    | Some n1, Some n2 => n1 = n2 /\ d_mode R d1 = d_mode R d2
    | None, None => s1 = s2
    | _, _ => False
    end.
Proof. exact key_of_shared. Qed.
Print Assumptions C17_memo_key_shared.

(* Placement.  Follow one state key `k0` — an unnamed Dataset.iterate call site, or all
   Dataset.iterate calls that share a `name` — (repeat on, n > 0 records) through ANY recipe of the
   modelled language: templates with count / for_each (named or not), any number of other call
   sites and names, nested objects and friends to any depth, any number of iterations, any oracle —
   under two conditions: every call under the key has the arguments named in the theorem
   (plain_list), and no row draws under the key both in its own fields and in its nested objects
   (nest_ok_list: there the order of writing is not the order of consuming; an unnamed call
   site, occurring once, always satisfies it: C17_once_is_nest_ok).  The calls may lie inside or
   below for_each templates (before the repair of ForEachVariableDefinition.evaluate that placement
   was refuted; see the regression examples below), and for_each loops over the same name do
   not disturb the sequence.
   Then the records handed out under the key, read off the written rows in order (trace), are
   record 0, 1, .., n-1, 0, 1, ..: the j-th is record j mod n.  Holds for the rows written before an
   error as well (e is unconstrained). *)
Theorem C17_placement_mod_n :
  forall (R C : Type) (col : R -> nat -> option C) (k0 : key) (data : list R) (nm : option nat)
         (iters : nat) (ts : tmpls R) (orc : list Z) (rows : list (row R C)) (e : option err),
    data <> [] ->
    nest_ok_list R k0 ts ->
    plain_list R k0 (mkDs data Linear true nm) false ts ->
    run_recipe R C col iters ts orc = (rows, e) ->
    forall j, (j < length (trace R C k0 rows))%nat ->
      nth_error (trace R C k0 rows) j = nth_error data (j mod length data).
Proof. exact placement_mod_n. Qed.
Print Assumptions C17_placement_mod_n.

(* Placement, repeat: False.  Under the same two conditions, the non-repeating Dataset.iterate
   state of a key hands out, over the whole run (all rows, all iterations, all sharing call sites),
   at most n records, and they are the file's records in file order: no record is ever used twice,
   wherever the consuming templates are placed.  (A run in which more than n rows consume it cannot
   end without error.) *)
Theorem C17_placement_no_reuse :
  forall (R C : Type) (col : R -> nat -> option C) (k0 : key) (data : list R) (nm : option nat)
         (iters : nat) (ts : tmpls R) (orc : list Z) (rows : list (row R C)) (e : option err),
    nest_ok_list R k0 ts ->
    plain_list R k0 (mkDs data Linear false nm) false ts ->
    run_recipe R C col iters ts orc = (rows, e) ->
    trace R C k0 rows = firstn (length (trace R C k0 rows)) data /\
    (length (trace R C k0 rows) <= length data)%nat.
Proof. exact placement_norepeat. Qed.
Print Assumptions C17_placement_no_reuse.

(* a key that occurs at most once in the recipe text (every unnamed call site) is well placed *)
Theorem C17_once_is_nest_ok :
  forall (R : Type) (k0 : key) (ts : tmpls R), (occ_list R k0 ts <= 1)%nat -> nest_ok_list R k0 ts.
Proof. intros R k0. exact (proj2 (occ_le1_nest_ok R k0)). Qed.
Print Assumptions C17_once_is_nest_ok.

(* for_each and `name`: a for_each over a named dataset is the for_each over the same dataset
   without the name — same rows, same state afterwards — at every evaluation (any iteration, any
   parent row, whatever is remembered under that name, whatever the context flag).  With
   C17_for_each_general: every evaluation writes one row per record, in order, and stops. *)
Theorem C17_for_each_ignores_name :
  forall (R C : Type) (col : R -> nat -> option C) tid (data : list R) m rp nm
         (sites : list (nat * dsref R)) pass nested friends rc (s : st R C),
    gen_rows R C col (Tmpl tid (LForEach (mkDs data m rp nm)) sites pass nested friends) rc s =
    gen_rows R C col (Tmpl tid (LForEach (mkDs data m rp None)) sites pass nested friends) rc s.
Proof.
  (* the expression is evaluated by new_iter, which does not look at the name *)
  intros. rewrite !gen_rows_eq. unfold new_iter, start. cbn [d_mode d_data d_repeat].
  destruct m; cbn [bind]; [reflexivity|].
  destruct (shuffle R data (s_orc R C s)) as [[res o]|e]; reflexivity.
Qed.
Print Assumptions C17_for_each_ignores_name.

(* ... and such a loop (any part of a recipe without a field call under the key; for_each loops
   over the same name are not field calls) leaves the iterator remembered under the key as it was:
   a consumer elsewhere continues where it stood. *)
Theorem C17_loops_leave_named_state :
  forall (R C : Type) (col : R -> nat -> option C) (k0 : key) (t : tmpl R) rc (s : st R C),
    occ R k0 t = O ->
    match gen_rows R C col t rc s with
    | ROk _ _ _ _ s' => lookup R k0 (s_sites R C s') = lookup R k0 (s_sites R C s)
    | RErr _ _ _ _ _ => True
    end.
Proof.
  intros R C col k0 t rc s Hocc.
  pose proof (proj1 (frame_gen R C col k0) t Hocc rc _ _ s (frame_refl R C k0 s)) as H.
  destruct (gen_rows R C col t rc s); [exact (proj1 H)|exact I].
Qed.
Print Assumptions C17_loops_leave_named_state.

(* for_each: a template whose loop is for_each over dataset d writes exactly one row per record of
   one pass over d — in file order for iterate (no randomness used), a permutation for shuffle —
   with child_index 0..n-1, and then stops; zero records give zero rows.  Whatever the `repeat`
   keyword says and whatever the enclosing context is (rc). *)
Theorem C17_for_each_exact :
  forall (R C : Type) (col : R -> nat -> option C) tid (d : dsref R) pass (p : R -> list C)
         rc sites orc out it orc1,
    new_iter R d orc = Ok (it, orc1) ->
    (forall x, In x (d_data R d) -> project R C col (Some x) pass = Ok (p x)) ->
    gen_rows R C col (Tmpl tid (LForEach d) [] pass TNil TNil) rc (mkSt R C sites orc out)
    = ROk R C unit tt (mkSt R C sites orc1 (out ++ fe_rows R C tid p (i_rest R it) 0)) /\
    Permutation (i_rest R it) (d_data R d) /\
    (d_mode R d = Linear -> i_rest R it = d_data R d /\ orc1 = orc).
Proof. exact for_each_exact. Qed.
Print Assumptions C17_for_each_exact.

(* the rows named above: as many as records, the k-th carries the k-th record and child_index k *)
Theorem C17_for_each_rows_shape :
  forall (R C : Type) tid (p : R -> list C) (recs : list R),
    length (fe_rows R C tid p recs 0) = length recs /\
    forall k x, nth_error recs k = Some x ->
      nth_error (fe_rows R C tid p recs 0) k = Some (mkRow tid (Some x) (Z.of_nat k) [] (p x)).
Proof.
  intros. split; [apply fe_rows_length|].
  intros k x H. rewrite (fe_rows_nth R C tid p recs 0 k x H). reflexivity.
Qed.
Print Assumptions C17_for_each_rows_shape.

(* for_each in general: the template may have any Dataset fields, projected columns, nested objects
   and friends (none writing under the same template id), and sit in any context (rc, s).  If it
   completes, the rows it wrote (mine) carry exactly the records of one pass over the dataset
   (i_rest of the freshly started iterator: file order / a permutation, see C17_for_each_exact),
   in order, with child_index 0, 1, ..; if the run fails inside, the rows written so far carry a
   prefix of that list. *)
Theorem C17_for_each_general :
  forall (R C : Type) (col : R -> nat -> option C) (tid : nat) (d : dsref R)
         (sites : list (nat * dsref R)) (pass : list nat) (nested friends : tmpls R)
         (rc : bool) (s : st R C),
    tid_free_list R tid nested -> tid_free_list R tid friends ->
    match gen_rows R C col (Tmpl tid (LForEach d) sites pass nested friends) rc s with
    | ROk _ _ _ _ s' =>
      exists it orc1 ex, new_iter R d (s_orc R C s) = Ok (it, orc1) /\
        s_out R C s' = s_out R C s ++ ex /\
        map (fe_key R C) (mine R C tid ex) = keys R (i_rest R it) 0
    | RErr _ _ _ _ o =>
      (exists e0, new_iter R d (s_orc R C s) = Err e0 /\ o = s_out R C s) \/
      (exists it orc1 ex, new_iter R d (s_orc R C s) = Ok (it, orc1) /\
        o = s_out R C s ++ ex /\
        prefix (map (fe_key R C) (mine R C tid ex)) (keys R (i_rest R it) 0))
    end.
Proof. exact for_each_general. Qed.
Print Assumptions C17_for_each_general.

(* keys recs 0 = [(Some r0, 0); (Some r1, 1); ...] *)
Theorem C17_for_each_keys_shape :
  forall (R : Type) (recs : list R),
    length (keys R recs 0) = length recs /\
    forall k x, nth_error recs k = Some x -> nth_error (keys R recs 0) k = Some (Some x, Z.of_nat k).
Proof.
  intros. split; [apply keys_length|].
  intros k x H. rewrite (keys_nth R recs 0 k x H). reflexivity.
Qed.
Print Assumptions C17_for_each_keys_shape.

(* the iterator protocol behind it: zip(iterator, count()) over an iterator whose repeat flag was
   turned off delivers the rest of the pass in order and stops *)
Theorem C17_for_each_drains_once :
  forall (R : Type) (rest : list R) (d : dsref R) orc fuel,
    (length rest < fuel)%nat ->
    zip_drain R fuel (mkIter R d false rest) orc = Ok (rest, orc).
Proof. exact zip_drain_norepeat. Qed.
Print Assumptions C17_for_each_drains_once.

(* update mode: one row per input record, in input order, pass-through columns taken from that
   record; empty input gives no rows; a template with `count` is rejected *)
Theorem C17_update_exact :
  forall (R C : Type) (col : R -> nat -> option C) tid lp (own : list nat) (input : list R)
         (passthrough : list nat) (p : R -> list C) orc,
    (forall m, lp <> LCount m) ->
    (forall x, In x input -> project R C col (Some x) (own ++ passthrough) = Ok (p x)) ->
    run_update R C col (TCons (Tmpl tid lp [] own TNil TNil) TNil) input passthrough orc
    = (fe_rows R C tid p input 0, None).
Proof. exact update_exact. Qed.
Print Assumptions C17_update_exact.

(* a non-repeating dataset hands out its n records once (file order when linear); request n+1 and
   every later request is a DataGenError, never a record *)
Theorem C17_no_silent_reuse :
  forall (R : Type) (d : dsref R) orc it orc1,
    d_repeat R d = false ->
    new_iter R d orc = Ok (it, orc1) ->
    Permutation (i_rest R it) (d_data R d) /\
    (d_mode R d = Linear -> i_rest R it = d_data R d) /\
    (exists it', draw_seq R (length (d_data R d)) it orc1 = Ok (i_rest R it, it', orc1) /\
       forall j, exists e, is_dge e /\ draw_seq R (S j) it' orc1 = Err e) /\
    forall j, exists e, is_dge e /\ draw_seq R (length (d_data R d) + S j) it orc1 = Err e.
Proof. exact no_silent_reuse. Qed.
Print Assumptions C17_no_silent_reuse.

(* an empty dataset: the first request is a DataGenError, with or without repeat *)
Theorem C17_empty_dataset_error :
  forall (R : Type) (d : dsref R) orc,
    d_data R d = [] ->
    exists it, new_iter R d orc = Ok (it, orc) /\ exists e, is_dge e /\ field_draw R it orc = Err e.
Proof. exact empty_dataset_error. Qed.
Print Assumptions C17_empty_dataset_error.

(* Regression for the repaired finding "Dataset.iterate/shuffle below a for_each restarted at
   every evaluation" (KNOWN_FINDINGS, fixed).  Formerly C17_refuted_below_for_each: the friend T1
   below the for_each template T2 received record 10 twice and `repeat: False` never raised.
   Now the call site keeps its iterator: 10, then 20, and a third request is an error. *)
Definition below_for_each_witness : tmpls Z :=
  TCons (Tmpl 2%nat (LForEach (mkDs [1; 2] Linear true None)) [] [] TNil
              (TCons (Tmpl 1%nat (LCount 1%nat) [(1%nat, mkDs [10; 20] Linear false None)] [] TNil TNil) TNil))
        TNil.

Example C17_ex_below_for_each_repaired :
  exists rows,
    run_recipe Z Z (fun _ _ => None) 1%nat below_for_each_witness [] = (rows, None) /\
    map (r_cons Z Z) (filter (fun r => Nat.eqb (r_tid r) 1%nat) rows)
    = [[(KSite 1%nat, 10)]; [(KSite 1%nat, 20)]].
Proof. eexists. split; vm_compute; reflexivity. Qed.

Example C17_ex_below_for_each_overrun :
  exists rows e,
    run_recipe Z Z (fun _ _ => None) 2%nat below_for_each_witness [] = (rows, Some (DGE e)) /\
    map (r_cons Z Z) (filter (fun r => Nat.eqb (r_tid r) 1%nat) rows)
    = [[(KSite 1%nat, 10)]; [(KSite 1%nat, 20)]].
Proof. eexists. eexists. split; vm_compute; reflexivity. Qed.

(* the witness satisfies the hypotheses of C17_placement_no_reuse: the theorem covers it *)
Example C17_ex_below_for_each_hyps :
  nest_ok_list Z (KSite 1%nat) below_for_each_witness /\
  plain_list Z (KSite 1%nat) (mkDs [10; 20] Linear false None) false below_for_each_witness.
Proof. vm_compute. intuition (try discriminate; auto). Qed.

Example C17_ex_iterate_wraps :
  run_recipe Z Z (fun _ _ => None) 2%nat
    (TCons (Tmpl 1%nat (LCount 2%nat) [(1%nat, mkDs [10; 20; 30] Linear true None)] [] TNil TNil) TNil) []
  = ([mkRow 1%nat None 0 [(KSite 1%nat, 10)] []; mkRow 1%nat None 1 [(KSite 1%nat, 20)] [];
      mkRow 1%nat None 0 [(KSite 1%nat, 30)] []; mkRow 1%nat None 1 [(KSite 1%nat, 10)] []], None).
Proof. vm_compute. reflexivity. Qed.

(* a recipe that satisfies the hypotheses of C17_placement_mod_n: the call site 1 sits in a nested
   object of a friend, next to another call site and a for_each template; 2 iterations *)
Definition placement_witness : tmpls Z :=
  TCons (Tmpl 3%nat (LCount 2%nat) [(7%nat, mkDs [5] Linear true None)] []
              TNil
              (TCons (Tmpl 2%nat LDefault [] []
                           (TCons (Tmpl 1%nat (LCount 2%nat) [(1%nat, mkDs [10; 20; 30] Linear true None)] [] TNil TNil) TNil)
                           TNil) TNil))
        (TCons (Tmpl 4%nat (LForEach (mkDs [8; 9] Linear true None)) [] [] TNil TNil) TNil).

Example C17_ex_placement_hyps :
  nest_ok_list Z (KSite 1%nat) placement_witness /\ plain_list Z (KSite 1%nat) (mkDs [10; 20; 30] Linear true None) false placement_witness.
Proof. vm_compute. intuition (try discriminate; auto). Qed.

Example C17_ex_placement_trace :
  trace Z Z (KSite 1%nat) (fst (run_recipe Z Z (fun _ _ => None) 2%nat placement_witness []))
  = [10; 20; 30; 10; 20; 30; 10; 20].
Proof. vm_compute. reflexivity. Qed.

Example C17_ex_shuffle_two_cycles :
  run_recipe Z Z (fun _ _ => None) 1%nat
    (TCons (Tmpl 1%nat (LCount 6%nat) [(1%nat, mkDs [10; 20; 30] Shuffled true None)] [] TNil TNil) TNil)
    [0; 1; 2; 0]
  = ([mkRow 1%nat None 0 [(KSite 1%nat, 30)] []; mkRow 1%nat None 1 [(KSite 1%nat, 20)] [];
      mkRow 1%nat None 2 [(KSite 1%nat, 10)] []; mkRow 1%nat None 3 [(KSite 1%nat, 20)] [];
      mkRow 1%nat None 4 [(KSite 1%nat, 10)] []; mkRow 1%nat None 5 [(KSite 1%nat, 30)] []], None).
Proof. vm_compute. reflexivity. Qed.

Example C17_ex_norepeat_overrun :
  run_recipe Z Z (fun _ _ => None) 1%nat
    (TCons (Tmpl 1%nat (LCount 3%nat) [(1%nat, mkDs [10; 20] Linear false None)] [] TNil TNil) TNil) []
  = ([mkRow 1%nat None 0 [(KSite 1%nat, 10)] []; mkRow 1%nat None 1 [(KSite 1%nat, 20)] []],
     Some (DGE "Could not generate enough values to create rows")).
Proof. vm_compute. reflexivity. Qed.

Example C17_ex_update :
  run_update (list Z) Z (fun r i => nth_error r i)
    (TCons (Tmpl 1%nat LDefault [] [] TNil TNil) TNil) [[7; 70]; [9; 90]] [1%nat] []
  = ([mkRow 1%nat (Some [7; 70]) 0 [] [70]; mkRow 1%nat (Some [9; 90]) 1 [] [90]], None).
Proof. vm_compute. reflexivity. Qed.

(* Named datasets: two call sites (a template and its friend) share `name: 7`, a for_each
   template loops over the same name, 2 iterations.  The shared state hands out 10, 20, 30, 10, ..
   across both sites in the order the rows are written; the for_each writes its 3 rows in every
   iteration (this is the shape of a change that made the for_each use the remembered iterator:
   4, 0, 0 rows instead of 4, 4, 4). *)
Definition named_witness : tmpls Z :=
  TCons (Tmpl 1%nat (LCount 2%nat) [(1%nat, mkDs [10; 20; 30] Linear true (Some 7%nat))] [] TNil
              (TCons (Tmpl 2%nat LDefault [(2%nat, mkDs [10; 20; 30] Linear true (Some 7%nat))] [] TNil TNil) TNil))
        (TCons (Tmpl 3%nat (LForEach (mkDs [10; 20; 30] Linear true (Some 7%nat))) [] [] TNil TNil) TNil).

Example C17_ex_named_hyps :
  nest_ok_list Z (KName Linear 7%nat) named_witness /\
  plain_list Z (KName Linear 7%nat) (mkDs [10; 20; 30] Linear true (Some 7%nat)) false named_witness.
Proof. vm_compute. intuition (try discriminate; auto). Qed.

Example C17_ex_named_trace :
  let rows := fst (run_recipe Z Z (fun _ _ => None) 2%nat named_witness []) in
  trace Z Z (KName Linear 7%nat) rows = [10; 20; 30; 10; 20; 30; 10; 20] /\
  map (fun r => (r_fe Z Z r, r_index Z Z r)) (filter (fun r => Nat.eqb (r_tid r) 3%nat) rows)
  = [(Some 10, 0); (Some 20, 1); (Some 30, 2); (Some 10, 0); (Some 20, 1); (Some 30, 2)].
Proof. vm_compute. split; reflexivity. Qed.

(* iterate and shuffle under the same name are different states *)
Example C17_ex_name_per_function :
  key_of Z 1%nat (mkDs [10] Linear true (Some 7%nat)) <> key_of Z 2%nat (mkDs [10] Shuffled true (Some 7%nat)).
Proof. vm_compute. discriminate. Qed.

(* The CSV record reader: csv.reader / csv.DictReader over the file as Snowfakery opens it; model:
   eolize, csv_step, csv_run, dict_reader in theories/Datasets.v. *)

(* Reading back what was written.  For every list of rows — a row has any number of cells (none: a
   blank line), a cell is any sequence of code points, written bare or between double quotes with
   inner quotes doubled; a cell containing a comma, a quote, CR or LF, and an empty cell that is
   alone in its row, must be quoted (row_ok / cells_ok); cells are not longer than
   csv.field_size_limit() — with each row ended by LF or CRLF, an optional last row without
   terminator, and an optional byte order mark: csv.reader returns exactly those rows. *)
Theorem C17_csv_roundtrip :
  forall (bom : bool) (rows : list wrow) (last : option (list wcell)),
    forallb row_ok rows = true ->
    match last with Some cs => cs <> [] /\ cells_ok cs = true | None => True end ->
    bom_ok bom (write_rows rows ++ match last with Some cs => write_cells cs | None => [] end) = true ->
    csv_rows (write_file bom rows last)
    = Ok (map (fun r => row_texts (w_cells r)) rows ++
          match last with Some cs => [row_texts cs] | None => [] end).
Proof. exact csv_roundtrip. Qed.
Print Assumptions C17_csv_roundtrip.

(* ... and the records of the dataset: with a header row and no row longer than the header, the
   records delivered are the non-blank rows after the header, in file order, every cell intact,
   short rows filled up with None. *)
Theorem C17_csv_records_roundtrip :
  forall (bom : bool) (header : wrow) (rows : list wrow) (last : option (list wcell)),
    forallb row_ok (header :: rows) = true ->
    match last with Some cs => cs <> [] /\ cells_ok cs = true | None => True end ->
    bom_ok bom (write_rows (header :: rows) ++ match last with Some cs => write_cells cs | None => [] end) = true ->
    let body := map (fun r => row_texts (w_cells r)) rows ++
                match last with Some cs => [row_texts cs] | None => [] end in
    Forall (fun r => (length r <= length (w_cells header))%nat) body ->
    csv_records (write_file bom (header :: rows) last)
    = Ok (Some (row_texts (w_cells header)),
          map (pad_row (length (w_cells header))) (filter (fun r => negb (is_blank r)) body)).
Proof.
  intros bom header rows last Hrows Hlast Hbom body Hshort. unfold csv_records.
  rewrite (csv_roundtrip bom (header :: rows) last Hrows Hlast Hbom). cbn [bind map app dict_reader]. fold body.
  unfold row_texts at 1. rewrite map_length, dict_records_short by exact (incl_Forall (incl_filter _ _) Hshort).
  reflexivity.
Qed.
Print Assumptions C17_csv_records_roundtrip.

(* non-vacuity: a file with a byte order mark, header a,b; a quoted cell with CR, CRLF, a comma and
   a doubled quote inside; a blank line; a short row; a quoted empty cell alone; last row without
   terminator *)
Definition csv_witness_rows : list wrow :=
  [mkWRow [mkCell [97] false; mkCell [98] true] true;
   mkWRow [mkCell [120; 13; 121; 13; 10; 44; 34; 122] true; mkCell [] false] false;
   mkWRow [] true;
   mkWRow [mkCell [233] false] false;
   mkWRow [mkCell [] true] true].
Definition csv_witness_last : option (list wcell) := Some [mkCell [51] false; mkCell [65279] false].

Example C17_ex_csv_hyps :
  forallb row_ok csv_witness_rows = true /\
  (match csv_witness_last with Some cs => cs <> [] /\ cells_ok cs = true | None => True end) /\
  bom_ok true (write_rows csv_witness_rows ++ match csv_witness_last with Some cs => write_cells cs | None => [] end) = true.
Proof. vm_compute. split; [reflexivity|]. split; [split; [discriminate|reflexivity]|reflexivity]. Qed.

Example C17_ex_csv_text :
  write_file true csv_witness_rows csv_witness_last
  = [65279; 97; 44; 34; 98; 34; 13; 10;
     34; 120; 13; 121; 13; 10; 44; 34; 34; 122; 34; 44; 10;
     13; 10;
     233; 10;
     34; 34; 13; 10;
     51; 44; 65279].
Proof. vm_compute. reflexivity. Qed.

Example C17_ex_csv_records :
  csv_records (write_file true csv_witness_rows csv_witness_last)
  = Ok (Some [[97]; [98]],
        [[Some [120; 13; 121; 13; 10; 44; 34; 122]; Some []];
         [Some [233]; None];
         [Some []; None];
         [Some [51]; Some [65279]]]).
Proof. vm_compute. reflexivity. Qed.

(* the reader outside what a writer produces: quotes inside a bare cell are kept, text after a
   closing quote is appended, an unterminated quoted cell is returned at the end of the file, a lone
   CR ends a line *)
Example C17_ex_csv_lenient :
  csv_rows [97; 34; 98; 44; 34; 99; 34; 100; 13; 120; 10; 34; 101; 102]
  = Ok [[[97; 34; 98]; [99; 100]]; [[120]]; [[101; 102]]].
Proof. vm_compute. reflexivity. Qed.

(* Arguments rendered per row (`dataset: words_${{lang}}.csv`, `table: ${{...}}`).
   evaluate_memorable_function keeps the state of an unnamed call per call site AND rendered
   arguments ([args_run]).  For every run — any number of call sites and argument tuples, their
   evaluations interleaved in any way — in which the rendered arguments determine the dataset
   ([dsof]) and the datasets named are non-empty, read by Dataset.iterate with repeat on: the run
   does not fail, and its i-th evaluation receives record (j mod n) of the dataset ITS arguments
   name, j = the number of earlier evaluations of the same call site with the same arguments —
   never a record of a dataset that some other row named. *)
Theorem C17_args_key_mod_n :
  forall (R : Type) (dsof : nat -> nat -> dsref R) (calls : list (acall R)) (orc : list Z),
    (forall c, In c calls ->
       c_ds R c = dsof (c_site R c) (c_args R c) /\
       d_mode R (c_ds R c) = Linear /\ d_repeat R (c_ds R c) = true /\ d_data R (c_ds R c) <> []) ->
    exists xs, args_run R calls [] orc = (xs, None) /\ length xs = length calls /\
      forall i c, nth_error calls i = Some c ->
        nth_error xs i = nth_error (d_data R (c_ds R c))
                                   (prior R (c_key R c) (firstn i calls) mod length (d_data R (c_ds R c))).
Proof.
  intros R dsof calls orc Hall.
  exact (args_run_inv R (fun k => dsof (fst k) (snd k)) calls [] (fun _ => 0%nat) orc (fun k => eq_refl) Hall).
Qed.
Print Assumptions C17_args_key_mod_n.

(* non-vacuity: one call site alternating between an English (n = 3) and a French (n = 2) file,
   and a second call site on the French file *)
Definition args_en : dsref Z := mkDs [1; 2; 3] Linear true None.
Definition args_fr : dsref Z := mkDs [10; 20] Linear true None.
Definition args_witness : list (acall Z) :=
  [mkCall 1%nat 0%nat args_en; mkCall 1%nat 1%nat args_fr; mkCall 1%nat 0%nat args_en;
   mkCall 2%nat 1%nat args_fr; mkCall 1%nat 1%nat args_fr; mkCall 1%nat 0%nat args_en;
   mkCall 1%nat 1%nat args_fr; mkCall 1%nat 0%nat args_en].

Example C17_ex_args_trace :
  args_run Z args_witness [] [] = ([1; 10; 2; 10; 20; 3; 10; 1], None).
Proof. vm_compute. reflexivity. Qed.

Example C17_ex_args_hyps :
  forall c, In c args_witness ->
    c_ds Z c = (fun _ a => if Nat.eqb a 0 then args_en else args_fr) (c_site Z c) (c_args Z c) /\
    d_mode Z (c_ds Z c) = Linear /\ d_repeat Z (c_ds Z c) = true /\ d_data Z (c_ds Z c) <> [].
Proof.
  intros c H. cbn [args_witness In] in H.
  repeat (destruct H as [H|H]; [subst c; vm_compute; repeat split; discriminate|]). contradiction.
Qed.

(* a non-repeating dataset named by some of the rows is used up by THOSE rows only: the third row
   that names the French file fails, whatever the rows naming the English file did in between *)
Example C17_ex_args_norepeat :
  args_run Z [mkCall 1%nat 1%nat (mkDs [10; 20] Linear false None); mkCall 1%nat 0%nat args_en;
              mkCall 1%nat 1%nat (mkDs [10; 20] Linear false None); mkCall 1%nat 0%nat args_en;
              mkCall 1%nat 1%nat (mkDs [10; 20] Linear false None)] [] []
  = ([10; 1; 20; 2], Some (DGE "Could not generate enough values to create rows")).
Proof. vm_compute. reflexivity. Qed.

(* "every column intact".  A consuming row sees its record through Snowfakery's case-insensitive
   dictionary (store keyed by fold(name), fold = str.lower in /repo; the model takes ANY folding).
   When the column names of the dataset are pairwise different under the folding, the record shows
   exactly the columns of the row — names as written, values, order — and looking a column up under
   any spelling that folds like its name gives that column's value. *)
Theorem C17_columns_intact :
  forall (V : Type) (fold : name -> name) (l : list (name * V)),
    NoDup (map fold (map fst l)) ->
    cid_items (record_of fold l) = l /\
    forall k v k', In (k, v) l -> fold k' = fold k -> record_get fold (record_of fold l) k' = Some v.
Proof.
  intros V fold l Hnd. unfold record_of, record_get.
  rewrite cid_build_fresh; [|rewrite with_fold_keys; exact Hnd|intros x _ []].
  split; [apply with_fold_items|]. intros k v k'. apply with_fold_get, Hnd.
Qed.
Print Assumptions C17_columns_intact.

(* ... and only then: if two column names fold alike they are ONE key and the record has fewer
   columns than the row (so a folding that identifies more names than str.lower loses columns that
   are intact today: Strasse / Stra(sharp s)e under str.casefold). *)
Theorem C17_columns_twins_collapse :
  forall (V : Type) (fold : name -> name) (l : list (name * V)),
    ~ NoDup (map fold (map fst l)) -> (length (cid_items (record_of fold l)) < length l)%nat.
Proof.
  (* as many distinct keys as columns, all among the folded names: then those are distinct *)
  intros V fold l Hdup. destruct (record_keys V fold l) as [Hnd Hincl].
  apply Nat.nle_gt. intros Hge. apply Hdup, (NoDup_incl_NoDup Hnd); [|exact Hincl].
  unfold cid_items in Hge. rewrite !map_length in *. exact Hge.
Qed.
Print Assumptions C17_columns_twins_collapse.

(* non-vacuity: header Nr, Stra(223)e, Strasse.  Under a folding that keeps 223 the three columns
   arrive; under one that turns 223 into "ss" the record shows two columns and the name
   Stra(223)e answers with the value of column Strasse. *)
Definition nm_nr : name := [78; 114].
Definition nm_sz : name := [83; 116; 114; 97; 223; 101].
Definition nm_ss : name := [83; 116; 114; 97; 115; 115; 101].
Definition fold_id : name -> name := fun s => s.
Definition fold_ss : name -> name := flat_map (fun z => if z =? 223 then [115; 115] else [z]).
Definition row_w : list (name * Z) := [(nm_nr, 1); (nm_sz, 2); (nm_ss, 3)].

Example C17_ex_columns_intact :
  cid_items (record_of fold_id row_w) = row_w /\ record_get fold_id (record_of fold_id row_w) nm_sz = Some 2.
Proof. vm_compute. split; reflexivity. Qed.

Example C17_ex_columns_collapse :
  cid_items (record_of fold_ss row_w) = [(nm_nr, 1); (nm_ss, 3)] /\
  record_get fold_ss (record_of fold_ss row_w) nm_sz = Some 3.
Proof. vm_compute. split; reflexivity. Qed.

(* Macros.  `include: m` parses the macro again for every including template: the call sites the
   inclusion brings along are the macro's, renumbered for this inclusion (in front of the
   template's own) ... *)
Theorem C17_include_macro_call_sites :
  forall (R : Type) k (m : macro R) (t : tmpl R) s,
    In s (tmpl_sids R (include_macro R k m t)) <->
    In s (map (Nat.add k) (macro_sids R m)) \/ In s (tmpl_sids R t).
Proof.
  intros R k m t s. rewrite <- in_app_iff.
  split; apply Permutation_in; [|symmetry]; apply include_macro_sids_perm.
Qed.
Print Assumptions C17_include_macro_call_sites.

(* ... two inclusions have no call site in common (local numbers below B, inclusions numbered from
   i*B and j*B) ... *)
Theorem C17_inclusions_own_call_sites :
  forall (R : Type) (m : macro R) (B i j : nat),
    (forall s, In s (macro_sids R m) -> (s < B)%nat) -> i <> j ->
    forall s, In s (map (Nat.add (i * B)) (macro_sids R m)) ->
              ~ In s (map (Nat.add (j * B)) (macro_sids R m)).
Proof. exact inclusions_own_call_sites. Qed.
Print Assumptions C17_inclusions_own_call_sites.

(* ... hence the same Dataset call reached through two inclusions (two different call sites) has two
   state keys — each including template is a consumer of its own, to which the per-key theorems
   above (C17_placement_mod_n, C17_placement_no_reuse) apply — unless the call is named. *)
Theorem C17_inclusions_keys :
  forall (R : Type) (d : dsref R) (a b : nat),
    a <> b -> (key_of R a d = key_of R b d <-> d_name R d <> None).
Proof. intros R d a b Hab. rewrite key_of_shared. destruct (d_name R d); intuition congruence. Qed.
Print Assumptions C17_inclusions_keys.

(* non-vacuity: macro `address` (one Dataset.iterate field, local call site 1) included by Customer
   and Supplier: call sites 101 and 201 *)
Definition ex_macro : macro Z := mkMacro [(1%nat, mkDs [10; 20; 30] Linear true None)] TNil TNil.
Example C17_ex_inclusions :
  tmpl_sids Z (include_macro Z 100 ex_macro (Tmpl 1%nat (LCount 2) [] [] TNil TNil)) = [101%nat] /\
  tmpl_sids Z (include_macro Z 200 ex_macro (Tmpl 2%nat (LCount 2) [] [] TNil TNil)) = [201%nat].
Proof. vm_compute. split; reflexivity. Qed.
