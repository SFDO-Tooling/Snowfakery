(* C07 — generation stops at the first iteration boundary that meets the target.
   Model: theories/Stopping.v (snowfakery/api.py SnowfakeryApplication.ensure_progress_was_made /
   check_if_finished, data_generator_runtime.py IdManager.start_ids, StoppingCriteria,
   Interpreter.loop_over_templates_until_finished, RuntimeContext.check_if_finished and the
   unknown-stopping-table test of Interpreter.__init__).
   Statements here; the proofs live in proofs/StoppingP.v (tloop_app, tloop_inv).

   Reading guide.  [run tables sc cont rs]: one call of generate(); [tables] = tables the recipe
   can create; [sc] = stopping criterion (None = nothing given); [cont] = None for a fresh run,
   Some last0 for a run continued from a state in which the criterion table's last id was last0;
   [rs] = rows of the criterion table created by iteration 1, 2, 3, ... (any finite prefix of the
   run's behaviour; the list length plays the role of fuel, [Exhausted] = prefix used up).
   [Stopped j last]: normal end after exactly j complete iterations, last id = last.
   [Failed j e]: exception e at the end of iteration j (j = 0: before the first iteration).
   [proper_table T]: T is not "__REPS__" (the repetition marker; a recipe table literally so
   named would be read as a repetition target — the one corner these theorems exclude).

   History: the code used to violate two clauses (K7: a no-progress first iteration of a
   continued run went unnoticed; K10: the empty table name was never rejected and the run never
   ended).  Both were repaired in /repo (0afda32, d9d462f); the model transcribes the repaired
   code, the former `_refuted` / `_partial` statements are now the full theorems
   C07_no_progress / C07_empty_table_name_rejected, and the old witnesses are regression
   Examples at the end of this file.                                                            *)
From Coq Require Import ZArith List Lia.
From SFV Require Import Base Stopping.
From SFV.P Require Import StoppingP.
Import ListNotations. Open Scope Z_scope.

(* Repetition target k >= 1: exactly k iterations, whatever the iterations create (zeros
   included), fresh or continued. *)
Theorem C07_reps_exact :
  forall tables k cont pre x rest,
    1 <= k -> Z.of_nat (length pre) + 1 = k ->
    run tables (Some (mkCrit COUNT_REPS k)) cont (pre ++ x :: rest)
    = Stopped (length pre + 1) (base cont + zsum pre + x).
Proof. intros. apply run_reps. lia. Qed.
Print Assumptions C07_reps_exact.

(* No target: exactly one iteration. *)
Theorem C07_default_one_iteration :
  forall tables cont x rest,
    run tables None cont (x :: rest) = Stopped 1 (base cont + x).
Proof.
  intros. rewrite <- (Z.add_0_r (base cont)). exact (run_reps tables 1 cont [] x rest eq_refl).
Qed.
Print Assumptions C07_default_one_iteration.

(* Target (T, N): if iterations 1..|pre| each make progress and together create < N rows at every
   boundary, and iteration |pre|+1 brings the total since this run's start to >= N, the run ends
   normally after exactly |pre|+1 whole iterations; the final id is start id + everything those
   iterations created.  Same statement for fresh and continued runs (any [cont]): rows are
   counted from this run's start. *)
Theorem C07_target_stops_at_first_boundary :
  forall T tables N cont pre x rest,
    proper_table T -> In T tables -> 1 <= N ->
    Forall (fun r => 1 <= r) pre ->
    (forall i, (i <= length pre)%nat -> zsum (firstn i pre) < N) ->
    N <= zsum pre + x ->
    run tables (Some (mkCrit T N)) cont (pre ++ x :: rest)
    = Stopped (length pre + 1) (base cont + zsum pre + x).
Proof. exact target_stops_at_first_boundary. Qed.
Print Assumptions C07_target_stops_at_first_boundary.

(* Converse, for EVERY row-count sequence (zeros included) and every N: whenever a run ends
   normally it ended at the first boundary with >= N rows since its start (minimality), after
   whole iterations only (the id state is exactly that of j complete iterations). *)
Theorem C07_target_stop_is_first_boundary :
  forall T tables N cont rs j last,
    proper_table T -> In T tables ->
    run tables (Some (mkCrit T N)) cont rs = Stopped j last ->
    (1 <= j <= length rs)%nat /\
    last = base cont + zsum (firstn j rs) /\
    N <= zsum (firstn j rs) /\
    forall i, (1 <= i < j)%nat -> zsum (firstn i rs) < N.
Proof. exact target_stop_is_first_boundary. Qed.
Print Assumptions C07_target_stop_is_first_boundary.

(* Every iteration creates >= 1 row: the run ends normally, at the first boundary, within N
   iterations (explicit fuel bound: any prefix of length >= N suffices). *)
Theorem C07_target_progress_bound :
  forall T tables N cont rs,
    proper_table T -> In T tables -> 1 <= N ->
    Forall (fun r => 1 <= r) rs -> Z.of_nat (length rs) >= N ->
    exists j, (1 <= j)%nat /\ Z.of_nat j <= N /\
      run tables (Some (mkCrit T N)) cont rs = Stopped j (base cont + zsum (firstn j rs)) /\
      N <= zsum (firstn j rs) /\
      forall i, (1 <= i < j)%nat -> zsum (firstn i rs) < N.
Proof. exact target_progress_bound. Qed.
Print Assumptions C07_target_progress_bound.

(* The same for an infinite behaviour r : nat -> Z, fuel = length of the prefix examined. *)
Theorem C07_target_first_boundary_stream :
  forall T tables N cont (r : nat -> Z) fuel,
    proper_table T -> In T tables -> 1 <= N ->
    (forall j, 1 <= r j) -> Z.of_nat fuel >= N ->
    exists j, (1 <= j)%nat /\ Z.of_nat j <= N /\
      run tables (Some (mkCrit T N)) cont (prefix r fuel)
      = Stopped j (base cont + zsum (prefix r j)) /\
      N <= zsum (prefix r j) /\
      forall i, (1 <= i < j)%nat -> zsum (prefix r i) < N.
Proof. exact target_first_boundary_stream. Qed.
Print Assumptions C07_target_first_boundary_stream.

(* No run with a target loops forever, whatever the iterations create (zeros included), fresh or
   continued: N iterations of fuel always suffice. *)
Theorem C07_target_terminates :
  forall T tables N cont rs,
    proper_table T -> In T tables -> 1 <= N ->
    Forall (fun r => 0 <= r) rs ->
    Z.of_nat (length rs) >= N ->
    forall n, run tables (Some (mkCrit T N)) cont rs <> Exhausted n.
Proof.
  intros. rewrite run_is_tloop by assumption. apply tloop_strict_term; [assumption | lia].
Qed.
Print Assumptions C07_target_terminates.

(* An exception at an iteration boundary is always the RuntimeError of the progress check, is
   raised only after an iteration that created no row of T, and only before the target is met. *)
Theorem C07_target_error_only_without_progress :
  forall T tables N cont rs j e,
    proper_table T -> In T tables ->
    run tables (Some (mkCrit T N)) cont rs = Failed j e ->
    exists n, j = S n /\ e = runtime_error /\ nth_error rs n = Some 0 /\
              forall i, (1 <= i <= n)%nat -> zsum (firstn i rs) < N.
Proof. exact target_error_only_without_progress. Qed.
Print Assumptions C07_target_error_only_without_progress.

(* Full statement (formerly refuted for continued runs, K7): in every run, fresh or continued,
   the first iteration that creates no row of T before the target is met — also when it is the
   very first iteration of a continued run — ends the run with that error at its own end. *)
Theorem C07_no_progress :
  forall T tables N cont pre rest,
    proper_table T -> In T tables -> 1 <= N ->
    Forall (fun r => 1 <= r) pre ->
    (forall i, (i <= length pre)%nat -> zsum (firstn i pre) < N) ->
    run tables (Some (mkCrit T N)) cont (pre ++ 0 :: rest)
    = Failed (length pre + 1) runtime_error.
Proof. exact no_progress. Qed.
Print Assumptions C07_no_progress.

(* Relative counting: a continued run behaves exactly like a fresh run on the same iterations —
   same number of iterations, same error if any — with all ids translated by last0, for every
   sequence and every offset.  The stop decision does not depend on the continuation's offset. *)
Theorem C07_relative_after_continuation :
  forall T tables N last0 rs,
    proper_table T -> In T tables ->
    run tables (Some (mkCrit T N)) (Some last0) rs
    = shift_outcome last0 (run tables (Some (mkCrit T N)) None rs).
Proof.
  intros. rewrite !run_is_tloop by assumption. cbn [base]. rewrite <- tloop_shift. f_equal; lia.
Qed.
Print Assumptions C07_relative_after_continuation.

(* A target naming a table the recipe cannot create: Snowfakery's own error, at construction,
   before the first iteration (hence before any row), whatever the rest of the input. *)
Theorem C07_unknown_table_rejected :
  forall T tables N cont rs,
    proper_table T -> ~ In T tables ->
    exists kind, run tables (Some (mkCrit T N)) cont rs = Failed 0 (DGE kind).
Proof. intros. eexists. apply run_unknown_table; assumption. Qed.
Print Assumptions C07_unknown_table_rejected.

(* In particular the empty table name (formerly K10: never rejected, run never ended). *)
Theorem C07_empty_table_name_rejected :
  forall tables N cont rs,
    ~ In ""%string tables ->
    exists kind, run tables (Some (mkCrit "" N)) cont rs = Failed 0 (DGE kind).
Proof. intros tables N cont rs. apply C07_unknown_table_rejected. discriminate. Qed.
Print Assumptions C07_empty_table_name_rejected.

(* One application object reused for a run and its continuation (parent_application; its
   starting_id / rep_count are never reset): after a run with criterion (T, N) that ended
   normally at id [last], the object is in a state ... *)
Theorem C07_reused_application_state :
  forall T rs j a m n last,
    proper_table T -> c_table (a_crit a) = T -> 0 <= a_rep_count a ->
    loop rs j a m = Stopped n last ->
    a_crit (final_app rs a m) = a_crit a /\
    a_starting_id (final_app rs a m) = last /\
    1 <= a_rep_count (final_app rs a m).
Proof. intros T rs j a m n last HT <-. exact (final_app_stopped rs j a m n last HT). Qed.
Print Assumptions C07_reused_application_state.

(* ... from which it decides the continuation exactly like a new object with that criterion:
   all the theorems above carry over; rows are counted from the continuation's start. *)
Theorem C07_reused_application_same_as_new :
  forall T tables N last0 a rs,
    proper_table T -> a_crit a = mkCrit T N -> a_starting_id a = last0 -> 1 <= a_rep_count a ->
    run_with tables a (Some last0) rs = run tables (Some (mkCrit T N)) (Some last0) rs.
Proof. exact reused_application_same_as_new. Qed.
Print Assumptions C07_reused_application_same_as_new.

(* ---- non-vacuity: concrete runs that satisfy the hypotheses ---- *)
Example C07_ex_reuse :               (* one object, target (T,4), 2 rows per iteration, 3 runs *)
  chain_reuse ["M"; "T"; "E"]%string (new_app (Some (mkCrit "T" 4))) None
              [2; 2; 2; 2; 2; 2; 2; 2] [7%nat; 7%nat; 7%nat]
  = [Stopped 2 4; Stopped 2 8; Stopped 2 12].
Proof. vm_compute. reflexivity. Qed.

Example C07_ex_fresh_target :        (* 2 + 3 < 7 <= 2 + 3 + 2 *)
  run ["M"; "T"]%string (Some (mkCrit "T" 7)) None [2; 3; 2; 5] = Stopped 3 7.
Proof. vm_compute. reflexivity. Qed.

Example C07_ex_continued_target :    (* counted from the continuation: 10 + (2 + 3 + 2) *)
  run ["M"; "T"]%string (Some (mkCrit "T" 7)) (Some 10) [2; 3; 2; 5] = Stopped 3 17.
Proof. vm_compute. reflexivity. Qed.

Example C07_ex_exact_boundary :      (* N reached exactly: not one iteration more *)
  run ["T"]%string (Some (mkCrit "T" 5)) (Some 4) [2; 3; 1] = Stopped 2 9.
Proof. vm_compute. reflexivity. Qed.

Example C07_ex_reps :
  run ["T"]%string (Some (mkCrit COUNT_REPS 3)) (Some 4) [0; 2; 0; 9] = Stopped 3 6.
Proof. vm_compute. reflexivity. Qed.

Example C07_ex_no_progress_fresh :
  run ["T"]%string (Some (mkCrit "T" 9)) None [2; 1; 0; 4] = Failed 3 runtime_error.
Proof. vm_compute. reflexivity. Qed.

Example C07_ex_no_progress_continued_second :
  run ["T"]%string (Some (mkCrit "T" 9)) (Some 3) [1; 0; 4] = Failed 2 runtime_error.
Proof. vm_compute. reflexivity. Qed.

Example C07_ex_unknown_table :
  run ["M"; "T"]%string (Some (mkCrit "Q" 2)) None [1; 1] = Failed 0 (DGE "DataGenNameError").
Proof. vm_compute. reflexivity. Qed.

(* ---- regressions: the witnesses of the repaired defects now satisfy the property ---- *)
Example C07_regression_K7_witness :  (* was Stopped 3 5: the zero first iteration went unnoticed *)
  run ["T"]%string (Some (mkCrit "T" 2)) (Some 3) [0; 1; 1] = Failed 1 runtime_error.
Proof. vm_compute. reflexivity. Qed.

Example C07_regression_K7_chain :    (* fresh reps 1, then target (T,2) from id 2, first iteration 0 *)
  chain ["M"; "T"; "E"]%string None [2; 0; 1; 2; 0; 1]
        [(Some (mkCrit COUNT_REPS 1), 3%nat); (Some (mkCrit "T" 2), 5%nat)]
  = [Stopped 1 2; Failed 1 runtime_error].
Proof. vm_compute. reflexivity. Qed.

Example C07_regression_K10_witness : (* was Exhausted n for every n *)
  run ["M"; "T"; "E"]%string (Some (mkCrit "" 1)) None [0; 0; 0; 0]
  = Failed 0 (DGE "DataGenNameError").
Proof. vm_compute. reflexivity. Qed.

Example C07_regression_K10_arithmetic : (* the application object alone: progress error at once *)
  loop [0; 0; 0; 0] 0 (new_app (Some (mkCrit "" 1))) (init_idm None) = Failed 1 runtime_error.
Proof. vm_compute. reflexivity. Qed.

Example C07_ex_chain :               (* fresh reps 2, then target (T,4) counted from id 3 *)
  chain ["M"; "T"]%string None [2; 1; 3; 1; 5]
        [(Some (mkCrit COUNT_REPS 2), 10%nat); (Some (mkCrit "T" 4), 10%nat)]
  = [Stopped 2 3; Stopped 2 7].
Proof. vm_compute. reflexivity. Qed.

(* ==================================================================================================
   C07 over the SF-core interpreter (theories/StopInterp.v, proofs/StopInterpP.v).

   The theorems above abstract an iteration to "the number of rows of the criterion table it
   creates".  Below that abstraction is discharged: [run_target r sc fuel c] is one call of
   generate() on the recipe r - the loop of data_generator_runtime.py 437-446 running
   Interp.iteration and handing the *id counter* of the criterion table to the application object
   of Stopping.v, as api.py does.  By theorem C01 the counter has advanced, at every iteration
   boundary, by exactly the number of rows of the table delivered to the output (forward
   references reserve ids before their rows exist, so this is not true inside an iteration).
   ================================================================================================== *)
From SFV Require Import Interp StopInterp.
From SFV.P Require Import IdsP RefsP StopInterpP.

(* At every iteration boundary of any run (fresh or continued) of any recipe of the fragment, the
   id counter of a visible table has advanced by exactly the number of its rows this run wrote. *)
Theorem C07_interp_counter_is_row_count :
  forall e stmts c k s0 s T,
    start_ok s0 -> iterations k e stmts c s0 = Ok s -> hidden T = false ->
    Z.of_nat (length (written T (out s))) = last_id s T - last_id s0 T.
Proof. exact counter_is_rows. Qed.
Print Assumptions C07_interp_counter_is_row_count.

(* Fresh run of a recipe with target (T, N): if generate() returns normally, some template of the
   recipe creates T; whole iterations only were executed - the final state is that of the
   repetition run of j >= 1 iterations; this run has delivered >= N rows of T; and after every
   smaller number of whole iterations it had delivered < N (first boundary). *)
Theorem C07_interp_target_fresh :
  forall (r : recipe) T N fuel s j,
    Stopping.proper_table T -> hidden T = false ->
    run_target r (Some (Stopping.mkCrit T N)) fuel None = Ok (s, j) ->
    In T (tables_of (r_stmts r)) /\ (1 <= j)%nat /\ run_fresh r j = Ok s /\
    N <= Z.of_nat (length (written T (out s))) /\
    forall i si, (1 <= i < j)%nat -> run_fresh r i = Ok si ->
                 Z.of_nat (length (written T (out si))) < N.
Proof. exact target_run_fresh. Qed.
Print Assumptions C07_interp_target_fresh.

(* Continued run: rows are counted from this run's start, i.e. from the counter recorded in the
   continuation file it was started from. *)
Theorem C07_interp_target_continued :
  forall (r : recipe) T N fuel c0 s0 s j,
    Stopping.proper_table T -> hidden T = false ->
    (forall U, 0 <= match lookup U (k_ids c0) with Some z => z | None => 0 end) ->
    load (env_of r) c0 = Ok s0 ->
    run_target r (Some (Stopping.mkCrit T N)) fuel (Some c0) = Ok (s, j) ->
    (1 <= j)%nat /\ iterations j (env_of r) (r_stmts r) true s0 = Ok s /\
    N <= Z.of_nat (length (written T (out s))) /\
    N <= last_id s T - last_id s0 T /\
    forall i si, (1 <= i < j)%nat -> iterations i (env_of r) (r_stmts r) true s0 = Ok si ->
                 Z.of_nat (length (written T (out si))) < N.
Proof. exact target_run_continued. Qed.
Print Assumptions C07_interp_target_continued.

(* Hidden criterion tables have no written rows to count; the statement about the counter holds
   for every table. *)
Theorem C07_interp_target_counter :
  forall e stmts c T N fuel mstart s0 s j,
    Stopping.proper_table T -> mstart_ok mstart s0 T ->
    run_until fuel e stmts c (Stopping.new_app (Some (Stopping.mkCrit T N))) mstart s0 0 = Ok (s, j) ->
    (1 <= j)%nat /\ iterations j e stmts c s0 = Ok s /\
    N <= last_id s T - last_id s0 T /\
    forall i si, (1 <= i < j)%nat -> iterations i e stmts c s0 = Ok si ->
                 last_id si T - last_id s0 T < N.
Proof. exact target_first_boundary_counter. Qed.
Print Assumptions C07_interp_target_counter.

(* A target that no template of the recipe creates is rejected before the first iteration. *)
Theorem C07_interp_unknown_target_rejected :
  forall (r : recipe) T N fuel c,
    Stopping.proper_table T -> ~ In T (tables_of (r_stmts r)) ->
    run_target r (Some (Stopping.mkCrit T N)) fuel c = Err (DGE "DataGenNameError").
Proof. exact unknown_target_rejected. Qed.
Print Assumptions C07_interp_unknown_target_rejected.

(* Repetition target k >= 1 / no target: the loop is exactly k / one iteration(s) of the recipe. *)
Theorem C07_interp_reps_exact :
  forall e stmts c k mstart s fuel,
    1 <= k -> (Z.to_nat k <= fuel)%nat ->
    run_until fuel e stmts c (Stopping.new_app (Some (Stopping.mkCrit Stopping.COUNT_REPS k))) mstart s 0 =
    (do s' <- iterations (Z.to_nat k) e stmts c s; Ok (s', Z.to_nat k)).
Proof.
  intros e stmts c k mstart s fuel Hk Hf.
  rewrite (run_until_reps k mstart e stmts (Z.to_nat k) fuel _ c s 0%nat); try reflexivity; try lia.
  cbn [Stopping.new_app Stopping.a_rep_count]. lia.
Qed.
Print Assumptions C07_interp_reps_exact.

Theorem C07_interp_default_one_iteration :
  forall e stmts c mstart s fuel,
    (1 <= fuel)%nat ->
    run_until fuel e stmts c (Stopping.new_app None) mstart s 0 =
    (do s' <- iterations 1 e stmts c s; Ok (s', 1%nat)).
Proof.
  intros e stmts c mstart s fuel Hf.
  apply (run_until_reps 1 mstart e stmts 1%nat fuel _ c s 0%nat); try reflexivity; lia.
Qed.
Print Assumptions C07_interp_default_one_iteration.

(* Every error of a target run is accounted for: the error of one of the recipe's own iterations,
   or the no-progress error at the end of an iteration that completed without advancing the
   table's counter, or the model's fuel. *)
Theorem C07_interp_error_provenance :
  forall T N mstart e stmts,
    Stopping.proper_table T ->
    forall fuel a c s j x,
      Stopping.a_crit a = Stopping.mkCrit T N -> app_inv a mstart s T ->
      run_until fuel e stmts c a mstart s j = Err x ->
      (exists d si, iterations d e stmts c s = Ok si /\ iterations (S d) e stmts c s = Err x) \/
      (x = Stopping.runtime_error /\ exists d si si',
          iterations d e stmts c s = Ok si /\ iterations (S d) e stmts c s = Ok si' /\
          last_id si' T = last_id si T) \/
      (x = OutOfFuel /\ exists si, iterations fuel e stmts c s = Ok si).
Proof. exact run_until_err. Qed.
Print Assumptions C07_interp_error_provenance.

(* ... and the no-progress error IS raised at the first iteration that completes without
   advancing the counter, provided every earlier boundary advanced it and stayed below the
   target (otherwise the run would have ended there). *)
Theorem C07_interp_no_progress :
  forall T N mstart e stmts,
    Stopping.proper_table T ->
    forall d fuel a c s j si si',
      Stopping.a_crit a = Stopping.mkCrit T N -> app_inv a mstart s T ->
      (d < fuel)%nat ->
      iterations d e stmts c s = Ok si -> iterations (S d) e stmts c s = Ok si' ->
      last_id si' T = last_id si T ->
      (forall i sa sb, (i < d)%nat -> iterations i e stmts c s = Ok sa -> iterations (S i) e stmts c s = Ok sb ->
                       last_id sb T <> last_id sa T /\ last_id sb T < startv mstart + N - 1) ->
      run_until fuel e stmts c a mstart s j = Err Stopping.runtime_error.
Proof. exact run_until_no_progress. Qed.
Print Assumptions C07_interp_no_progress.

(* No target run loops forever: N >= 1 iterations of fuel are as good as any larger number,
   and with fuel N the out-of-fuel answer can only come from one of the recipe's iterations. *)
Theorem C07_interp_fuel_N_suffices :
  forall (r : recipe) T N fuel,
    Stopping.proper_table T -> 1 <= N -> (Z.to_nat N <= fuel)%nat ->
    run_target r (Some (Stopping.mkCrit T N)) fuel None =
    run_target r (Some (Stopping.mkCrit T N)) (Z.to_nat N) None.
Proof. exact target_run_fresh_fuel. Qed.
Print Assumptions C07_interp_fuel_N_suffices.

Theorem C07_interp_never_exhausts :
  forall e stmts c T N mstart s0,
    Stopping.proper_table T -> mstart_ok mstart s0 T -> J s0 -> V s0 -> 1 <= N ->
    run_until (Z.to_nat N) e stmts c (Stopping.new_app (Some (Stopping.mkCrit T N))) mstart s0 0 = Err OutOfFuel ->
    exists d si, iterations d e stmts c s0 = Ok si /\ iterations (S d) e stmts c s0 = Err OutOfFuel.
Proof.
  intros e stmts c T N mstart s0 HT Hm HJ HV HN H.
  apply (run_until_exhausted T N mstart e stmts HT) in H as [Hit|(si & _ & H2 & H3)];
    [exact Hit| |reflexivity|exact (app_inv_new _ _ _ _ Hm)|exact HJ|exact HV].
  unfold mstart_ok in Hm. lia.
Qed.
Print Assumptions C07_interp_never_exhausts.

(* ---- non-vacuity: a recipe whose B rows forward-reference A (ids of A are reserved before the
   A rows exist), 2 rows of A per iteration ---- *)
Open Scope string_scope.
Definition ex7_recipe : recipe :=
  mkRecipe 3 []
    [SObj (Tpl "B" None None false [("a", FRef "A")] []);
     SObj (Tpl "A" None (Some (FLitInt 2)) false [] [])] [].

Example C07_interp_ex_target :       (* target (A, 3): 2 < 3 <= 4, two whole iterations *)
  match run_target ex7_recipe (Some (Stopping.mkCrit "A" 3)) 3 None with
  | Ok (s, j) => (j, written "A" (out s), written "B" (out s))
  | Err _ => (0%nat, [], [])
  end = (2%nat, [4; 3; 2; 1], [2; 1]).
Proof. vm_compute. reflexivity. Qed.

Example C07_interp_ex_unknown :
  run_target ex7_recipe (Some (Stopping.mkCrit "C" 3)) 3 None = Err (DGE "DataGenNameError").
Proof. vm_compute. reflexivity. Qed.

Example C07_interp_ex_no_progress :  (* count 0: the first iteration creates no A *)
  match run_target (mkRecipe 3 [] [SObj (Tpl "A" None (Some (FLitInt 0)) false [] [])] [])
                   (Some (Stopping.mkCrit "A" 1)) 1 None with
  | Err e => err_eqb e Stopping.runtime_error
  | Ok _ => false
  end = true.
Proof. vm_compute. reflexivity. Qed.

Example C07_interp_ex_session :      (* reps 1, then target (A, 3) counted from the file: ids 3..6 *)
  match session ex7_recipe [1%nat] (Some (Stopping.mkCrit "A" 3)) 3 None with
  | Ok (rows, j) => (j, written "A" rows)
  | Err _ => (0%nat, [])
  end = (2%nat, [3; 4; 5; 6]).
Proof. vm_compute. reflexivity. Qed.
