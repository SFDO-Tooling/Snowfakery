(* C06 — just_once rows are created exactly once per dataset.
   Model: theories/Interp.v.  Proofs: proofs/OnceP.v.                                      *)
From Coq Require Import ZArith List.
From SFV Require Import Base Interp.
From SFV.P Require Import InterpP InterpHeapP RefsP OnceP.
Import ListNotations. Open Scope Z_scope. Open Scope string_scope.

(* the skip rule: a just_once statement does nothing whenever `continuing` holds — i.e. in
   every iteration after the first and in every iteration of a continued run (see
   [iterations] and [run_one] in Interp.v, which pass continuing = true there) *)
Theorem C06_just_once_skipped :
  forall fuel e t s, t_once t = true -> run (S fuel) e (TStmt (SObj t) true) s = Ok (s, RUnit).
Proof. intros fuel e t s H. cbn [run]. rewrite H. reflexivity. Qed.
Print Assumptions C06_just_once_skipped.

(* Any number of later iterations (just_once only at top level, as the parser enforces):
   the bindings nickname -> row and table -> row of just_once rows are untouched and every
   row keeps its table, id and child index. *)
Theorem C06_later_iterations_keep_singletons :
  forall k e stmts s s',
    once_top_only stmts = true -> iterations k e stmts true s = Ok s' ->
    same_persist s s' /\ heap_ext s s'.
Proof. exact later_iterations_keep_singletons_k. Qed.
Print Assumptions C06_later_iterations_keep_singletons.

(* every later use of a just_once nickname / table name denotes the same row (same handle,
   same table, same id) *)
Theorem C06_denotes_same_row :
  forall k e stmts s s' n h c,
    once_top_only stmts = true -> iterations k e stmts true s = Ok s' ->
    (lookup n (p_nicks s) = Some h \/ lookup n (p_tables s) = Some h) ->
    nth_error (heap s) h = Some c ->
    (lookup n (p_nicks s') = Some h \/ lookup n (p_tables s') = Some h) /\
    exists c', nth_error (heap s') h = Some c' /\ c_table c' = c_table c /\ c_id c' = c_id c.
Proof. exact singleton_denotation_stable. Qed.
Print Assumptions C06_denotes_same_row.

(* no task that is free of just_once templates can add or replace a just_once binding *)
Theorem C06_only_just_once_templates_bind :
  forall fuel e tk s s' r, run fuel e tk s = Ok (s', r) -> task_nf tk = true -> same_persist s s'.
Proof. exact run_persist. Qed.
Print Assumptions C06_only_just_once_templates_bind.

(* across a continuation the persistent names keep denoting rows with the same table, id
   and child index *)
Theorem C06_survive_continuation :
  forall e s c s0,
    save s = Ok c -> load e c = Ok s0 ->
    p_nicks s0 = p_nicks s /\ p_tables s0 = p_tables s /\
    forall h cl, nth_error (heap s) h = Some cl ->
      exists c', nth_error (heap s0) h = Some c' /\
                 c_table c' = c_table cl /\ c_id c' = c_id cl /\ c_index c' = c_index cl.
Proof. exact singletons_survive_continuation. Qed.
Print Assumptions C06_survive_continuation.

(* non-vacuity: three iterations split 1+2 over a continuation; the just_once rows appear once,
   later references denote them with their original ids, an ordinary template of the same
   table shadows the table name but not the nickname *)
Example C06_ex :
  run_history (mkRecipe 3 []
    [SObj (Tpl "J" (Some "jj") (Some (FLitInt 2)) true [("n", FFormula [PExpr (EVar "child_index")])] []);
     SObj (Tpl "A" None None false [("a", FRef "jj"); ("b", FRef "J"); ("c", FFormula [PExpr (EAttr (EVar "jj") "n")])] []);
     SObj (Tpl "J" None None false [("n", FLitInt 100)] [])] []) [1; 2]%nat None
  = Ok [[("J", [("id", OInt 1); ("n", OInt 0)]); ("J", [("id", OInt 2); ("n", OInt 1)]);
         ("A", [("id", OInt 1); ("a", ORef "J" 2); ("b", ORef "J" 2); ("c", OInt 1)]);
         ("J", [("id", OInt 3); ("n", OInt 100)])];
        [("A", [("id", OInt 2); ("a", ORef "J" 2); ("b", ORef "J" 2); ("c", OInt 1)]);
         ("J", [("id", OInt 4); ("n", OInt 100)]);
         ("A", [("id", OInt 3); ("a", ORef "J" 2); ("b", ORef "J" 2); ("c", OInt 1)]);
         ("J", [("id", OInt 5); ("n", OInt 100)])]].
Proof. vm_compute. reflexivity. Qed.

(* ---- which row a name denotes once the per-iteration names are gone (Globals.object_names) ---- *)

(* A name that is the TABLE of one just_once row and the NICKNAME of another (legal; only a warning)
   denotes the table's row in later iterations and continued runs, as in the iteration that made them. *)
Theorem C06_persistent_table_entry_wins :
  forall s n h,
    lookup n (last_by_table s) = None -> lookup n (nick_objs s) = None ->
    lookup n (p_tables s) = Some h -> object_name s n = Some (VRow h).
Proof. intros s n h H1 H2 H3. rewrite object_name_precedence, H1, H2, H3. reflexivity. Qed.
Print Assumptions C06_persistent_table_entry_wins.

Theorem C06_persistent_nickname_entry_last :
  forall s n h,
    lookup n (last_by_table s) = None -> lookup n (nick_objs s) = None -> lookup n (p_tables s) = None ->
    lookup n (p_nicks s) = Some h -> object_name s n = Some (VRow h).
Proof. intros s n h H1 H2 H3 H4. rewrite object_name_precedence, H1, H2, H3, H4. reflexivity. Qed.
Print Assumptions C06_persistent_nickname_entry_last.

(* non-vacuity, through the interpreter and a continuation: Region rows nicknamed `Office`, one Office
   row; `reference: Office` denotes Office(1) in every iteration of both runs *)
Example C06_nickname_spelled_like_a_just_once_table :
  run_history (mkRecipe 3 []
    [SObj (Tpl "Region" (Some "Office") (Some (FLitInt 2)) true [("f0", FLitInt 31)] []);
     SObj (Tpl "Office" None None true [("f0", FLitInt 47)] []);
     SObj (Tpl "Desk" None None false [("r", FRef "Office"); ("v", FFormula [PExpr (EAttr (EVar "Office") "f0")])] [])] [])
    [2; 1]%nat None
  = Ok [[("Region", [("id", OInt 1); ("f0", OInt 31)]); ("Region", [("id", OInt 2); ("f0", OInt 31)]);
         ("Office", [("id", OInt 1); ("f0", OInt 47)]);
         ("Desk", [("id", OInt 1); ("r", ORef "Office" 1); ("v", OInt 47)]);
         ("Desk", [("id", OInt 2); ("r", ORef "Office" 1); ("v", OInt 47)])];
        [("Desk", [("id", OInt 3); ("r", ORef "Office" 1); ("v", OInt 47)])]].
Proof. vm_compute. reflexivity. Qed.
