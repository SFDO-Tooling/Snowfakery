(* C15 — Schedule.Event emits exactly the occurrences of the recurrence it describes.
   Model: theories/Schedule.v (snowfakery/standard_plugins/Schedule.py, whole file).
   The statements; what takes more than a few lines to prove is proved in proofs/ScheduleP.v.

   The claim is PARTIAL.  The recurrence engine (dateutil.rrule, third party) is not verified:
   that it yields the RFC 5545 occurrences of the arguments it is given is the named hypothesis
   [engine_is_rfc5545] of C15_event_emits_exactly_partial.  What is proved, for all argument
   values, is Snowfakery's own part: which engine keyword receives which recipe keyword and in
   which normal form, the date / datetime precision rule, the flattening of include / exclude,
   the error cases, and that rows are the engine's output (no omission, addition or reordering).

   The zone defects K15a, K15b, K15c, K15e (include/exclude dates and `until` relabelled UTC, a
   datetime `until` losing its time, naive include/exclude datetimes) are repaired in /repo; the
   model is the repaired code, their former _refuted lemmas are regression Examples below, and
   C15_date_leaf_in_start_zone / C15_until_normal_forms / C15_leaf_dates_aware now hold for every
   zone.  Still NOT provable for the code as it is (KNOWN_FINDINGS K15d, _refuted lemma below):
   "a date-precision start yields dates also under for_each".                               *)
From Coq Require Import ZArith List Bool String Sorted.
From SFV Require Import Base Schedule.
From SFV.P Require Import ScheduleP.
Import ListNotations. Open Scope Z_scope. Open Scope string_scope.

(* "Each parameter restricts only the dimension it names": every engine keyword receives the
   normalisation of the recipe keyword of the same name, for all argument values. *)
Theorem C15_wiring_faithful : forall P now a r p sp,
  wire P now a = Ok (r, p, sp) ->
  exists fq,
    s_freq a = Some fq /\
    norm_freq fq p = Ok (r_freq r) /\
    norm_start P now (dflt ANone (s_start_date a)) = Ok (r_dtstart r, p) /\
    r_interval r = to_scalar (dflt (AInt 1) (s_interval a)) /\
    r_count r = to_scalar (dflt ANone (s_count a)) /\
    norm_until P (r_dtstart r) (dflt ANone (s_until a)) = Ok (r_until r) /\
    ints (dflt ANone (s_bysetpos a)) = Ok (r_bysetpos r) /\
    ints (dflt ANone (s_bymonth a)) = Ok (r_bymonth r) /\
    ints (dflt ANone (s_bymonthday a)) = Ok (r_bymonthday r) /\
    ints (dflt ANone (s_byyearday a)) = Ok (r_byyearday r) /\
    ints (dflt ANone (s_byeaster a)) = Ok (r_byeaster r) /\
    ints (dflt ANone (s_byweekno a)) = Ok (r_byweekno r) /\
    weekdays (dflt ANone (s_byweekday a)) = Ok (r_byweekday r) /\
    ints (dflt ANone (s_byhour a)) = Ok (r_byhour r) /\
    ints (dflt ANone (s_byminute a)) = Ok (r_byminute r) /\
    ints (dflt ANone (s_bysecond a)) = Ok (r_bysecond r) /\
    r_wkst r = Some SU /\
    r_cache r = to_scalar (dflt (ABool false) (s_cache a)).
Proof. exact wiring_faithful. Qed.
Print Assumptions C15_wiring_faithful.

(* A keyword that is not given leaves the engine keyword of the same name unset, whatever the
   other keywords are (excludes the repaired defect F1: bysecond also set byweekno). *)
Theorem C15_absent_keyword_absent_in_engine : forall P now a r p sp,
  wire P now a = Ok (r, p, sp) ->
  (s_bysetpos a = None -> r_bysetpos r = None) /\
  (s_bymonth a = None -> r_bymonth r = None) /\
  (s_bymonthday a = None -> r_bymonthday r = None) /\
  (s_byyearday a = None -> r_byyearday r = None) /\
  (s_byeaster a = None -> r_byeaster r = None) /\
  (s_byweekno a = None -> r_byweekno r = None) /\
  (s_byweekday a = None -> r_byweekday r = None) /\
  (s_byhour a = None -> r_byhour r = None) /\
  (s_byminute a = None -> r_byminute r = None) /\
  (s_bysecond a = None -> r_bysecond r = None) /\
  (s_until a = None -> r_until r = None) /\
  (s_count a = None -> r_count r = SNone) /\
  (s_interval a = None -> r_interval r = SInt 1).
Proof. exact absent_keyword_absent_in_engine. Qed.
Print Assumptions C15_absent_keyword_absent_in_engine.

(* Changing only the recipe's bysecond changes only the engine's bysecond. *)
Theorem C15_bysecond_restricts_only_seconds : forall P now a v r p sp r' p' sp',
  wire P now a = Ok (r, p, sp) ->
  wire P now (with_bysecond v a) = Ok (r', p', sp') ->
  r' = with_r_bysecond (r_bysecond r') r /\ p' = p /\ sp' = sp.
Proof. exact bysecond_restricts_only_seconds. Qed.
Print Assumptions C15_bysecond_restricts_only_seconds.

(* Schedule.Functions.Event hands every keyword to CalendarRule under the same name. *)
Theorem C15_event_passthrough : forall via kw a,
  to_sched_args via kw = Ok a ->
  s_freq a = assoc "freq" kw /\ s_start_date a = assoc "start_date" kw /\
  s_interval a = assoc "interval" kw /\ s_count a = assoc "count" kw /\
  s_until a = assoc "until" kw /\ s_bysetpos a = assoc "bysetpos" kw /\
  s_bymonth a = assoc "bymonth" kw /\ s_bymonthday a = assoc "bymonthday" kw /\
  s_byyearday a = assoc "byyearday" kw /\ s_byeaster a = assoc "byeaster" kw /\
  s_byweekno a = assoc "byweekno" kw /\ s_byweekday a = assoc "byweekday" kw /\
  s_byhour a = assoc "byhour" kw /\ s_byminute a = assoc "byminute" kw /\
  s_bysecond a = assoc "bysecond" kw /\ s_cache a = assoc "cache" kw /\
  s_exclude a = assoc "exclude" kw /\ s_include a = assoc "include" kw.
Proof. exact event_passthrough. Qed.
Print Assumptions C15_event_passthrough.

(* Precision: dates exactly for a date-like start (a date, or a string without any of " TZ+:");
   hourly / minutely / secondly rules always have datetime precision; next() projects to the
   local date for date precision and returns the engine's datetime unchanged otherwise. *)
Theorem C15_precision_rule : forall P now a r p sp,
  wire P now a = Ok (r, p, sp) ->
  (p = PDate <-> is_date_like (dflt ANone (s_start_date a)) = true) /\
  (is_time_freq (r_freq r) = true -> p = PDateTime) /\
  (forall x, emit_next p x = match p with PDate => VDate (d_days x) | PDateTime => VDateTime x end).
Proof.
  intros P now a r p sp H. destruct (wiring_faithful _ _ _ _ _ _ H) as (fq & _ & Hf & Hs & _).
  split; [|split; [exact (norm_freq_time _ _ _ Hf) | reflexivity]].
  rewrite (norm_start_precision _ _ _ _ _ Hs). destruct (is_date_like _); split; congruence.
Qed.
Print Assumptions C15_precision_rule.

(* include / exclude: the engine calls are those of the leaves of the nested lists, in order
   (equality of results — in particular equal as multisets, and the same first error). *)
Theorem C15_special_cases_flatten : forall P start mr md a,
  specials P start mr md a = mapM (leaf_call P start mr md) (flatten a).
Proof. exact specials_flatten. Qed.
Print Assumptions C15_special_cases_flatten.

(* exclude is processed before include, with exrule/exdate resp. rrule/rdate; falsy values are skipped *)
Theorem C15_special_cases_in_wire : forall P now a r p sp,
  wire P now a = Ok (r, p, sp) ->
  exists ex inc,
    sp = (ex ++ inc)%list /\
    (if truthy (dflt ANone (s_exclude a))
     then mapM (leaf_call P (r_dtstart r) MExRule MExDate) (flatten (dflt ANone (s_exclude a)))
     else Ok []) = Ok ex /\
    (if truthy (dflt ANone (s_include a))
     then mapM (leaf_call P (r_dtstart r) MRRule MRDate) (flatten (dflt ANone (s_include a)))
     else Ok []) = Ok inc.
Proof.
  intros P now a r p sp H. destruct (wire_inv _ _ _ _ _ _ H) as (fq & ex & inc & _ & _ & Hex & Hinc & ->).
  rewrite special_part_flatten in Hex, Hinc. eauto.
Qed.
Print Assumptions C15_special_cases_in_wire.

(* what each kind of leaf becomes: a nested rule's rule set, a datetime (naive = UTC), a date (or
   a date string) at the start's time of day in the start's zone *)
Theorem C15_leaf_calls : forall P start mr md,
  (forall rs, leaf_call P start mr md (ARule rs) = Ok (CSet mr rs)) /\
  (forall t, leaf_call P start mr md (ADateTime t) = Ok (CDate md (ensure_tz t))) /\
  (forall d, leaf_call P start mr md (ADate d) = Ok (CDate md (mkDT d (d_us start) (d_tz start)))) /\
  (forall s t, P s = Ok t ->
               leaf_call P start mr md (AStr s) = Ok (CDate md (mkDT (d_days t) (d_us start) (d_tz start)))) /\
  (forall a, match a with ARule _ | ADateTime _ | ADate _ | AStr _ | ASeq _ _ => False | _ => True end ->
             leaf_call P start mr md a = Err (Internal "TypeError")).
Proof.
  intros. repeat split; intros; try reflexivity.
  - cbn [leaf_call]. rewrite H. reflexivity.
  - destruct a; try contradiction; reflexivity.
Qed.
Print Assumptions C15_leaf_calls.

(* For EVERY zone: a date leaf differs from the start only in the day — it is the instant of the
   occurrence of that day at the start's wall time (a whole number of days after the start). *)
Theorem C15_date_leaf_in_start_zone : forall P start mr md d,
  leaf_call P start mr md (ADate d) = Ok (CDate md (mkDT d (d_us start) (d_tz start))) /\
  forall off, instant off (mkDT d (d_us start) (d_tz start)) - instant off start
              = (d - d_days start) * US_PER_DAY.
Proof. intros. split; [reflexivity | intro off; apply instant_days]. Qed.
Print Assumptions C15_date_leaf_in_start_zone.

(* no naive value reaches rdate / exdate *)
Theorem C15_leaf_dates_aware : forall P start mr md a m x,
  d_tz start <> None ->
  leaf_call P start mr md a = Ok (CDate m x) -> d_tz x <> None.
Proof. exact leaf_dates_aware. Qed.
Print Assumptions C15_leaf_dates_aware.

(* until: a date (or date string) is that day at the start's wall time in the start's zone; a
   datetime or datetime string is the instant it denotes (naive = UTC); nothing is relabelled *)
Theorem C15_until_normal_forms : forall P start,
  (forall a, truthy a = false -> norm_until P start a = Ok None) /\
  (forall d, norm_until P start (ADate d) = Ok (Some (ensure_tz (mkDT d (d_us start) (d_tz start))))) /\
  (forall t, norm_until P start (ADateTime t) = Ok (Some (ensure_tz t))) /\
  (forall s t, s <> EmptyString -> is_datetime s = true -> parse_dts P s = Ok t ->
               norm_until P start (AStr s) = Ok (Some t)) /\
  (forall s t, s <> EmptyString -> is_datetime s = false -> P s = Ok t ->
               norm_until P start (AStr s) = Ok (Some (ensure_tz (mkDT (d_days t) (d_us start) (d_tz start))))).
Proof.
  intros P start. repeat split; try reflexivity.
  1: intros a H; unfold norm_until; rewrite H; reflexivity.
  all: intros s t Hne Hd Hp; rewrite norm_until_str, Hd, Hp by assumption; reflexivity.
Qed.
Print Assumptions C15_until_normal_forms.

Theorem C15_until_keeps_aware_datetime : forall P start t off,
  d_tz t = Some off -> norm_until P start (ADateTime t) = Ok (Some t).
Proof. intros P start t off H. unfold norm_until, ensure_tz. rewrite H. reflexivity. Qed.
Print Assumptions C15_until_keeps_aware_datetime.

Theorem C15_undocumented_rejected : forall P now a fq,
  s_freq a = Some fq ->
  truthy (dflt (ABool false) (s_uuf a)) = false ->
  (truthy (dflt ANone (s_bysetpos a)) || truthy (dflt ANone (s_byeaster a))
   || truthy (dflt (ABool false) (s_cache a)) || truthy (dflt ANone (s_byweekno a))) = true ->
  wire P now a = Err (DGE "").
Proof. intros P now a fq Hf Hu Ht. unfold wire, check_undoc. rewrite Hf, Hu, Ht. reflexivity. Qed.
Print Assumptions C15_undocumented_rejected.

Theorem C15_time_freq_needs_datetime : forall P now a,
  is_date_like (dflt ANone (s_start_date a)) = true ->
  (exists s f, s_freq a = Some (AStr s) /\ freq_of (upper s) = Some f /\ is_time_freq f = true) ->
  is_ok (wire P now a) = false.
Proof.
  intros P now a Hd (s & f & Hs & Hf & Ht). apply wire_refused. intros r p sp H.
  destruct (wiring_faithful _ _ _ _ _ _ H) as (fq & Hfq & Hnf & Hst & _). rewrite Hs in Hfq. injection Hfq as <-.
  rewrite (norm_start_precision _ _ _ _ _ Hst), Hd in Hnf. unfold norm_freq in Hnf. rewrite Hf, Ht in Hnf. discriminate.
Qed.
Print Assumptions C15_time_freq_needs_datetime.

(* interval 0 / None / "" / False is rejected instead of being handed to the engine (which would
   never advance: /repo b708aa9) *)
Theorem C15_falsy_interval_rejected : forall P now a,
  truthy (dflt (AInt 1) (s_interval a)) = false -> is_ok (wire P now a) = false.
Proof.
  intros P now a Hi. apply wire_refused. intros r p sp H.
  destruct (wire_inv _ _ _ _ _ _ H) as (fq & ex & inc & _ & Ht & _). congruence.
Qed.
Print Assumptions C15_falsy_interval_rejected.

Theorem C15_bad_frequency_rejected : forall P now a fq,
  s_freq a = Some fq ->
  (forall p, norm_freq fq p = Err (DGE "")) ->
  is_ok (wire P now a) = false.
Proof.
  intros P now a fq Hf Hn. apply wire_refused. intros r p sp H.
  destruct (wiring_faithful _ _ _ _ _ _ H) as (fq' & Hfq & Hnf & _).
  rewrite Hf in Hfq. injection Hfq as <-. rewrite Hn in Hnf. discriminate.
Qed.
Print Assumptions C15_bad_frequency_rejected.

(* rows of a template with `count: n`: the first n values the engine yields, projected by the
   precision; if the engine yields fewer the run fails and nothing else is substituted *)
Theorem C15_rows_count_exact : forall p n stream,
  ((n <= List.length stream)%nat ->
     rows p (MCount n) stream = Ok (map (emit_next p) (firstn n stream))) /\
  ((List.length stream < n)%nat -> rows p (MCount n) stream = Err (DGE "")).
Proof.
  intros p n stream. unfold rows. split; intro H.
  - apply Nat.ltb_ge in H. rewrite H. reflexivity.
  - apply Nat.ltb_lt in H. rewrite H. reflexivity.
Qed.
Print Assumptions C15_rows_count_exact.

(* for_each: one row per element the engine yields, in order, then stop *)
Theorem C15_for_each_exact : forall p stream,
  rows p MForEach stream = Ok (map VDateTime stream) /\
  List.length (map VDateTime stream) = List.length stream.
Proof. intros. split; [reflexivity | apply map_length]. Qed.
Print Assumptions C15_for_each_exact.

(* chronological datetimes sharing one zone offset have non-decreasing local dates *)
Theorem C15_dates_chronological : forall off l,
  Forall (fun x => 0 <= d_us x < US_PER_DAY) l ->
  StronglySorted (fun x y => instant off x <= instant off y) l ->
  StronglySorted (fun x y => d_days x <= d_days y) l.
Proof. exact dates_sorted. Qed.
Print Assumptions C15_dates_chronological.

(* the function the correspondence check executes is [wire] on the evaluated keywords *)
Theorem C15_run_sound : forall via memo P now kw m stream rs vs,
  run via memo P now kw m stream = Ok (rs, vs) ->
  exists kw' a r p sp,
    eval_kw via memo P now kw = Ok kw' /\
    to_sched_args via kw' = Ok a /\
    wire P now a = Ok (r, p, sp) /\
    rs = ruleset_of a r sp /\
    rows p m stream = Ok vs.
Proof. exact run_sound. Qed.
Print Assumptions C15_run_sound.

(* The property itself, relative to the engine: if dateutil yields the RFC 5545 recurrence of
   the calls made on it (hypothesis, not proved), the n rows of a template are exactly its
   first n occurrences, in chronological order, projected by the precision — where the calls
   are those of C15_wiring_faithful / C15_special_cases_in_wire. *)
Theorem C15_event_emits_exactly_partial :
  forall (engine rfc5545 : ruleset -> list dt),
  (forall rs, engine rs = rfc5545 rs) ->                                   (* engine_is_rfc5545 *)
  (forall rs off, StronglySorted (fun x y => instant off x <= instant off y) (rfc5545 rs)) ->
  forall via memo P now kw n rs vs,
    run via memo P now kw (MCount n) (engine rs) = Ok (rs, vs) ->
    exists kw' a r p sp,
      eval_kw via memo P now kw = Ok kw' /\ to_sched_args via kw' = Ok a /\
      wire P now a = Ok (r, p, sp) /\ rs = ruleset_of a r sp /\
      (n <= List.length (rfc5545 rs))%nat /\
      vs = map (emit_next p) (firstn n (rfc5545 rs)) /\
      forall off, StronglySorted (fun x y => instant off x <= instant off y) (firstn n (rfc5545 rs)).
Proof.
  intros engine rfc5545 engine_is_rfc5545 chronological via memo P now kw n rs vs H. rewrite engine_is_rfc5545 in H.
  destruct (run_sound _ _ _ _ _ _ _ _ _ H) as (kw' & a & r & p & sp & ? & ? & ? & ? & Hr). apply rows_count_inv in Hr.
  destruct Hr. exists kw', a, r, p, sp. repeat split; try assumption. intro off. apply firstn_StronglySorted, chronological.
Qed.
Print Assumptions C15_event_emits_exactly_partial.

Theorem C15_for_each_emits_exactly_partial :
  forall (engine rfc5545 : ruleset -> list dt),
  (forall rs, engine rs = rfc5545 rs) ->
  forall via memo P now kw rs vs,
    run via memo P now kw MForEach (engine rs) = Ok (rs, vs) ->
    vs = map VDateTime (rfc5545 rs) /\ List.length vs = List.length (rfc5545 rs).
Proof.
  intros engine rfc5545 engine_is_rfc5545 via memo P now kw rs vs H. rewrite engine_is_rfc5545 in H.
  destruct (run_sound _ _ _ _ _ _ _ _ _ H) as (kw' & a & r & p & sp & _ & _ & _ & _ & Hr).
  injection Hr as <-. split; [reflexivity | apply map_length].
Qed.
Print Assumptions C15_for_each_emits_exactly_partial.

(* Within the fragment  freq in YEARLY..DAILY, interval, count, until, bymonth, bymonthday, byyearday,
   byweekday (with ordinals), byhour/byminute/bysecond as times of the day, rule sets of one zone
   (Schedule.v, [rs_occ]; outside it [rs_occ] answers None)  the hypothesis engine_is_rfc5545 is replaced
   by an executable Gallina recurrence [rr_occ] / [rs_occ], proved below to be ordered, duplicate-free
   and exactly the filtered set, and compared with dateutil's output on every generated case of the
   fragment ([engine_ok] inside the correspondence check).  What remains assumed inside the fragment is
   only that this per-run comparison (as good as its generators) covers dateutil's behaviour.          *)

(* the calendar conversion is a bijection between ordinals and valid civil dates *)
Theorem C15_civil_roundtrip :
  (forall n y m d, civil_from_days n = (y, m, d) ->
     1 <= m <= 12 /\ 1 <= d <= month_len y m /\ days_from_civil y m d = n) /\
  (forall y m d, 1 <= m <= 12 -> 1 <= d <= month_len y m ->
     civil_from_days (days_from_civil y m d) = (y, m, d)).
Proof.
  split.
  - intros n y m d H. destruct (civil_of_days n y m d H) as (A & B & C & _). auto.
  - exact days_of_civil.
Qed.
Print Assumptions C15_civil_roundtrip.

(* every rule the model accepts is well-formed: interval >= 1, times of the day valid and increasing *)
Theorem C15_rule_wellformed : forall r q, normalize r = Some q -> rule_ok q.
Proof. exact normalize_ok. Qed.
Print Assumptions C15_rule_wellformed.

(* the days the interval grid selects: some period k >= 0 of the rule <-> the declarative alignment
   (yearly: every interval-th year from the start's; monthly: every interval-th month; weekly: every
   interval-th week counted from the week (starting on wkst) that contains the start; daily) *)
Theorem C15_interval_grid : forall q n, 1 <= q_interval q ->
  (aligned q n <-> exists k, 0 <= k /\ plo q k <= n < phi q k).
Proof. exact aligned_iff. Qed.
Print Assumptions C15_interval_grid.

(* ONE RULE.  [is_occ q s]: s = day * 86400e6 + t * 1e6 for a day of some period k >= 0 that passes every
   filter ([day_ok]: each keyword looks only at its own component of the day), a time t of the rule, not
   before dtstart, not after until.  The model's list is strictly increasing (ordered, no duplicate),
   contains only occurrences, never more than count, and misses an occurrence only if it comes after
   the count-th one or - for a rule without count and until - on or after the horizon. *)
Theorem C15_rrule_exact : forall F H r q l b,
  normalize r = Some q -> rr_occ F H r = Some (l, b) ->
  StronglySorted Z.lt l /\
  (forall s, In s l -> is_occ q s) /\
  (forall c, q_count q = Some c -> Z.of_nat (List.length l) <= Z.max c 0) /\
  (forall s, is_occ q s ->
     In s l \/
     (exists c, q_count q = Some c /\ Z.of_nat (List.length l) = Z.max c 0 /\ forall x, In x l -> x < s) \/
     (b = false /\ H * US_DAY <= s)).
Proof.
  intros F H r q l b N R. unfold rr_occ in R. rewrite N in R.
  exact (gen_exact _ _ _ _ _ _ (normalize_ok _ _ N) R).
Qed.
Print Assumptions C15_rrule_exact.

(* `until` enters the recurrence only as the instant it denotes: any other representation of the same
   instant (another zone) gives the same rule.  (This is why the value coming out of the memo table of
   parse_datetimespec, whose keys compare equal across zones, is harmless for `until` - and why the
   correspondence check compares `until` as an instant.) *)
Theorem C15_until_only_instant : forall F H r u u',
  d_tz u <> None -> d_tz u' <> None -> inst_us u = inst_us u' ->
  normalize (with_r_until (Some u') r) = normalize (with_r_until (Some u) r) /\
  rr_occ F H (with_r_until (Some u') r) = rr_occ F H (with_r_until (Some u) r).
Proof. intros. unfold rr_occ. rewrite (until_only_instant r u u') by assumption. split; reflexivity. Qed.
Print Assumptions C15_until_only_instant.

(* RULE SETS: "united with include and minus exclude".  A rule set is [combine] applied to its parts
   (the main rule and nested sets as rrule / exrule, dates as rdate / exdate); the result is ordered and
   duplicate-free, and a stamp is in it iff an included part yields it (before the horizon unless all
   included parts are complete) and no excluded part does; the excluded parts are evaluated up to a
   horizon beyond every result. *)
Theorem C15_ruleset_unfold : forall F H tz c calls,
  rs_occ F H tz (RS c calls) = combine H (fun H' w => parts_of F tz H' w calls).
Proof. exact rs_occ_unfold. Qed.
Print Assumptions C15_ruleset_unfold.

Theorem C15_ruleset_exact : forall H parts l c,
  combine H parts = Some (l, c) ->
  exists incs excs H',
    parts H true = Some incs /\ parts H' false = Some excs /\ H <= H' /\ c = forallb snd incs /\
    StronglySorted Z.lt l /\
    (forall s, In s l <-> ((exists p, In p incs /\ In s (fst p)) /\ (c = true \/ s < H * US_DAY) /\
                           ~ (exists p, In p excs /\ In s (fst p)))) /\
    (forall s, In s l -> s < H' * US_DAY).
Proof. exact combine_spec. Qed.
Print Assumptions C15_ruleset_exact.

(* what the per-run comparison with dateutil establishes when it passes *)
Theorem C15_engine_check_sound : forall rs stream fin tz l c,
  engine_ok rs stream fin = true ->
  top_tz rs = Some tz -> in_fragment tz rs = true ->
  rs_occ ENGINE_FUEL (max_day 0 stream) tz rs = Some (l, c) ->
  stream = map (dt_of_stamp tz) (firstn (List.length stream) l) /\
  (fin = true -> c = true -> List.length l = List.length stream).
Proof.
  intros rs stream fin tz l c H T Fr R. unfold engine_ok in H. rewrite T, Fr, R in H.
  apply andb_prop in H. destruct H as [H1 H2]. split; [exact (list_eqb_eq _ _ dt_eqb_eq _ _ H1)|].
  intros -> ->. apply Nat.eqb_eq. exact H2.
Qed.
Print Assumptions C15_engine_check_sound.

(* The property inside the fragment, without the engine hypothesis: when the run's comparison passed,
   the n rows of a template are the first n values of the model's recurrence set (C15_ruleset_exact /
   C15_rrule_exact say which), projected by the precision. *)
Theorem C15_rows_are_model_recurrence : forall via memo P now kw n stream rs vs tz l c,
  run via memo P now kw (MCount n) stream = Ok (rs, vs) ->
  engine_ok rs stream false = true ->
  top_tz rs = Some tz -> in_fragment tz rs = true ->
  rs_occ ENGINE_FUEL (max_day 0 stream) tz rs = Some (l, c) ->
  exists p, vs = map (emit_next p) (map (dt_of_stamp tz) (firstn n l)) /\ List.length vs = n.
Proof.
  intros via memo P now kw n stream rs vs tz l c R E T Fr O.
  exact (rows_of_prefix _ _ _ _ _ _ _ _ _ _ _ _ R (proj1 (C15_engine_check_sound _ _ _ _ _ _ E T Fr O))).
Qed.
Print Assumptions C15_rows_are_model_recurrence.

Definition mk_rr (freq : Z) (start : dt) (iv : Z) (count : scalar) (until : option dt)
           (bymonth bymonthday : option (list Z)) (byweekday : option (list wday)) : rrule_args :=
  mkRR freq start (SInt iv) (Some SU) count until None bymonth bymonthday None None None byweekday
       None None None (SBool false).

(* 2024-02-29 is ordinal 738945 (a Thursday); 2024-03-01 is 738946 *)
Example C15_ex_calendar :
  civil_from_days 738945 = (2024, 2, 29) /\ days_from_civil 2024 3 1 = 738946 /\ weekday 738945 = 3 /\
  civil_from_days 1 = (1, 1, 1) /\ civil_from_days 730120 = (2000, 1, 1) /\ is_leap 1900 = false.
Proof. vm_compute. repeat split; reflexivity. Qed.

(* monthly on the last Friday, 3 times, from 2024-02-29 10:00 +05:30: Mar 29, Apr 26, May 31 *)
Example C15_ex_last_friday :
  option_map (fun p => (map (dt_of_stamp 19800) (fst p), snd p))
             (rr_occ 100 0 (mk_rr 1 (mkDT 738945 36000000000 (Some 19800)) 1 (SInt 3) None None None
                                  (Some [WD 4 (Some (-1))])))
  = Some ([mkDT 738974 36000000000 (Some 19800); mkDT 739002 36000000000 (Some 19800);
           mkDT 739037 36000000000 (Some 19800)], true).
Proof. vm_compute. reflexivity. Qed.

(* monthly on the 31st skips the short months; every second one; until in another zone *)
Example C15_ex_monthly_31 :
  option_map (fun p => map (fun s => s / US_DAY) (fst p))
             (rr_occ 100 0 (mk_rr 1 (mkDT 738916 0 (Some 0)) 2 SNone (Some (mkDT 739099 0 (Some 3600))) None None None))
  = Some [738916; 738976; 739037; 739098].     (* 2024-01-31, 03-31, 05-31, 07-31 *)
Proof. vm_compute. reflexivity. Qed.

(* the seeded defect of round 3, in the model: the same instant written in two zones is NOT the same
   schedule - monthly from 2024-02-29 20:00 -08:00 and from 2024-03-01 04:00 UTC start at one instant
   and then part; a start must therefore never be replaced by an equal-as-instant value *)
Example C15_ex_start_zone_matters :
  let a := mkDT 738945 72000000000 (Some (-28800)) in
  let b := mkDT 738946 14400000000 (Some 0) in
  inst_us a = inst_us b /\
  option_map (fun p => map (fun s => s + 28800 * 1000000) (fst p)) (rr_occ 100 0 (mk_rr 1 a 1 (SInt 3) None None None None))
  <> option_map (fun p => fst p) (rr_occ 100 0 (mk_rr 1 b 1 (SInt 3) None None None None)).
Proof. split; [vm_compute; reflexivity | vm_compute; discriminate]. Qed.

(* a rule set: daily x 5 from 2024-02-28, minus the leap day, plus 2024-03-10 *)
Example C15_ex_ruleset :
  option_map (fun p => (map (fun s => s / US_DAY) (fst p), snd p))
    (rs_occ 100 0 0 (RS (SBool false)
       [CRule MRRule (mk_rr 3 (mkDT 738944 0 (Some 0)) 1 (SInt 5) None None None None);
        CDate MExDate (mkDT 738945 0 (Some 0)); CDate MRDate (mkDT 738955 0 (Some 0))]))
  = Some ([738944; 738946; 738947; 738948; 738955], true).
Proof. vm_compute. reflexivity. Qed.

Example C15_ex_outside_fragment :
  rr_occ 100 0 (mk_rr 4 (mkDT 738945 0 (Some 0)) 1 (SInt 3) None None None None) = None /\
  rr_occ 100 0 (mk_rr 3 (mkDT 738945 0 None) 1 (SInt 3) None None None None) = None.
Proof. vm_compute. split; reflexivity. Qed.

Definition no_parser : parser := fun _ => Err BadOracle.
Definition mk_args (freq : string) (start : arg) (until exclude : option arg) : sched_args :=
  mkS (Some (AStr freq)) (Some start) None None until None None None None None None None None None None
      None exclude None None.

(* 2023-03-01 has proleptic ordinal 738580 *)
Definition start_0530 : dt := mkDT 738580 36000000000 (Some 19800).   (* 2023-03-01 10:00:00+05:30 *)

(* K15a (repaired): start 10:00 +05:30, exclude 2023-03-02: the exdate handed to the engine is the
   occurrence 2023-03-02 10:00 +05:30 itself (it used to be 10:00 UTC, another instant) *)
Example C15_exclude_date_zone_regression :
  exists r p,
    wire no_parser (mkDT 0 0 None) (mk_args "daily" (ADateTime start_0530) None (Some (ADate 738581)))
    = Ok (r, p, [CDate MExDate (mkDT 738581 36000000000 (Some 19800))]) /\ r_dtstart r = start_0530.
Proof. eexists. eexists. split; vm_compute; reflexivity. Qed.

(* K15b (repaired): start 10:00 -08:00, until 2023-03-04 (date): until is 2023-03-04 10:00 -08:00,
   the occurrence of that day (it used to be 10:00 UTC, eight hours earlier) *)
Example C15_until_zone_regression :
  exists r p,
    wire no_parser (mkDT 0 0 None)
         (mk_args "daily" (ADateTime (mkDT 738580 36000000000 (Some (-28800)))) (Some (ADate 738583)) None)
    = Ok (r, p, []) /\ r_until r = Some (mkDT 738583 36000000000 (Some (-28800))).
Proof. eexists. eexists. split; vm_compute; reflexivity. Qed.

(* K15c (repaired): until given as the datetime 2023-03-01 13:00 with an hourly rule starting
   10:00: the engine receives 13:00 (it used to receive 10:00) *)
Example C15_until_time_regression :
  exists r p,
    wire no_parser (mkDT 0 0 None)
         (mk_args "hourly" (ADateTime (mkDT 738580 36000000000 None))
                  (Some (ADateTime (mkDT 738580 46800000000 None))) None)
    = Ok (r, p, []) /\ r_until r = Some (mkDT 738580 46800000000 (Some 0)).
Proof. eexists. eexists. split; vm_compute; reflexivity. Qed.

(* K15e (repaired): a naive datetime in include reaches rdate as a UTC value *)
Example C15_naive_include_regression :
  specials no_parser start_0530 MRRule MRDate (ASeq false [ADateTime (mkDT 738581 43200000000 None)])
  = Ok [CDate MRDate (mkDT 738581 43200000000 (Some 0))].
Proof. vm_compute. reflexivity. Qed.

(* K15d (KNOWN_FINDINGS): under for_each a date-precision rule yields datetimes *)
Theorem C15_for_each_precision_refuted :
  exists a r sp x,
    wire no_parser (mkDT 0 0 None) a = Ok (r, PDate, sp) /\
    rows PDate MForEach [x] = Ok [VDateTime x] /\ rows PDate (MCount 1) [x] = Ok [VDate (d_days x)].
Proof.
  exists (mk_args "weekly" (ADate 739252) None None).
  eexists. eexists. exists (mkDT 739252 0 (Some 0)).
  split; [vm_compute; reflexivity | split; vm_compute; reflexivity].
Qed.
Print Assumptions C15_for_each_precision_refuted.

Definition ex_parser : parser := fun s =>
  if String.eqb s "2023-03-01T10:00:00" then Ok (mkDT 738580 36000000000 None)
  else if String.eqb s "2023-03-05" then Ok (mkDT 738584 0 None) else Err (Internal "ParserError").

Example C15_ex_wire :
  wire ex_parser (mkDT 0 0 None)
       (mkS (Some (AStr "Minutely")) (Some (AStr "2023-03-01T10:00:00")) (Some (AInt 2)) None
            (Some (AStr "2023-03-05")) None None (Some (AStr "1, -1")) None None None
            (Some (AStr "MO(+1), we")) None None (Some (AInt 30)) None
            (Some (ASeq true [ADate 738582; ASeq false [AStr "2023-03-05"]])) None None)
  = Ok (mkRR 5 (mkDT 738580 36000000000 (Some 0)) (SInt 2) (Some SU) SNone
             (Some (mkDT 738584 36000000000 (Some 0)))
             None None (Some [1; -1]) None None None (Some [WD 0 (Some 1); WD 2 None])
             None None (Some [30]) (SBool false),
        PDateTime,
        [CDate MExDate (mkDT 738582 36000000000 (Some 0)); CDate MExDate (mkDT 738584 36000000000 (Some 0))]).
Proof. vm_compute. reflexivity. Qed.

(* the witness of the repaired defect F1 now satisfies the property: no byweekno *)
Example C15_ex_bysecond_30 :
  match wire ex_parser (mkDT 0 0 None)
             (mkS (Some (AStr "minutely")) (Some (AStr "2023-03-01T10:00:00")) None None None None None None
                  None None None None None None (Some (AInt 30)) None None None None) with
  | Ok (r, _, _) => r_bysecond r = Some [30] /\ r_byweekno r = None
  | Err _ => False
  end.
Proof. vm_compute. split; reflexivity. Qed.

Example C15_ex_run :
  run true true ex_parser (mkDT 0 0 None)
      [("freq", ELit (AStr "daily")); ("start_date", ELit (ADate 738580));
       ("include", EEvent [("freq", ELit (AStr "yearly")); ("start_date", ELit (ADate 730120));
                           ("count", ELit (AInt 3))])]
      (MCount 2) [mkDT 730120 0 (Some 0); mkDT 730486 0 (Some 0)]
  = Ok (RS (SBool false)
           [CRule MRRule (mkRR 3 (mkDT 738580 0 (Some 0)) (SInt 1) (Some SU) SNone None None None None None
                               None None None None None None (SBool false));
            CSet MRRule (RS (SBool false)
                            [CRule MRRule (mkRR 0 (mkDT 730120 0 (Some 0)) (SInt 1) (Some SU) (SInt 3) None None
                                                None None None None None None None None None (SBool false))])],
        [VDate 730120; VDate 730486]).
Proof. vm_compute. reflexivity. Qed.

Example C15_ex_errors :
  wire ex_parser (mkDT 0 0 None) (mk_args "Hourly" (ADate 738580) None None) = Err (DGE "") /\
  wire ex_parser (mkDT 0 0 None) (mk_args "BLAH" (ADate 738580) None None) = Err (DGE "") /\
  wire ex_parser (mkDT 0 0 None) (mk_args "daily" (ABool true) None None) = Err (Internal "TypeError") /\
  wire ex_parser (mkDT 0 0 None) (mk_args "daily" (ADate 738580) None (Some (ABool true))) = Err (Internal "TypeError") /\
  wire ex_parser (mkDT 0 0 None)
       (mkS (Some (AStr "daily")) (Some (ADate 738580)) (Some (AInt 0)) None None None None None None None None
            None None None None None None None None) = Err (DGE "").
Proof. vm_compute. repeat split; reflexivity. Qed.
