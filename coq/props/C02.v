(* C02 — no dangling references: every emitted reference resolves to an emitted row.
   Model: theories/Interp.v.  Proofs: proofs/RefsP.v (on top of proofs/IdsP.v, C01).      *)
From Coq Require Import ZArith List Permutation.
From SFV Require Import Base RandRange RowHistory Interp.
From SFV.P Require Import InterpP IdsP RefsP ContP.
Import ListNotations. Open Scope Z_scope. Open Scope string_scope.

(* Fresh run of any recipe of the fragment, any number k of iterations that completes: every
   reference (T, i) written to the output, T visible, is the (table, id) of a row of the same
   output.  Applied to k = 1, 2, ... it says the target is written no later than the end of
   the iteration that wrote the reference. *)
Theorem C02_no_dangling :
  forall (r : recipe) (k : nat) (s : st),
    run_fresh r k = Ok s ->
    forall row n T i, In row (out s) -> In (n, ORef T i) (snd row) -> hidden T = false ->
      exists row', In row' (out s) /\ fst row' = T /\ orow_id row' = [i].
Proof. exact no_dangling_fresh. Qed.
Print Assumptions C02_no_dangling.

(* One run from any admissible start state (in particular a continued run): a written
   reference names an id issued before the run started, or a row written by this run. *)
Theorem C02_no_dangling_run :
  forall e stmts c k s0 s,
    start_ok s0 -> Bd s0 -> V s0 -> iterations k e stmts c s0 = Ok s ->
    forall row n T i, In row (out s) -> In (n, ORef T i) (snd row) -> hidden T = false ->
      (1 <= i <= last_id s0 T) \/ exists row', In row' (out s) /\ fst row' = T /\ orow_id row' = [i].
Proof. exact no_dangling_run. Qed.
Print Assumptions C02_no_dangling_run.

Theorem C02_no_dangling_continued :
  forall r k s c s',
    Bd s -> V s -> save s = Ok c ->
    run_one r k (Some c) = Ok s' ->
    forall row n T i, In row (out s') -> In (n, ORef T i) (snd row) -> hidden T = false ->
      (1 <= i <= last_id s T) \/ exists row', In row' (out s') /\ fst row' = T /\ orow_id row' = [i].
Proof. exact no_dangling_continued. Qed.
Print Assumptions C02_no_dangling_continued.

(* Any chain of continuation runs of a fresh dataset: every reference written anywhere in the
   history, to a visible table, is the (table, id) of a row written by the same run or by an
   earlier run of the chain ("or was written by an earlier iteration or continuation run"). *)
Theorem C02_no_dangling_history :
  forall (r : recipe) (ks : list nat) (rowss : list (list orow)),
    run_history r ks None = Ok rowss ->
    forall row n T i, In row (concat rowss) -> In (n, ORef T i) (snd row) -> hidden T = false ->
      resolves_in (concat rowss) T i.
Proof.
  intros r ks rowss H. rewrite run_history_chain in H.
  refine (chain_no_dangling _ _ _ _ _ _ [] (init_start_ok _ _) (init_Bd _ _) (init_V _ _) _ H).
  intros U _. constructor.
Qed.
Print Assumptions C02_no_dangling_history.

(* every id held by a row, a forward-reference slot or an already written reference has been
   issued by the table's counter — preserved by every task of the evaluator *)
Theorem C02_ids_issued_invariant :
  forall fuel e tk s s' r, run fuel e tk s = Ok (s', r) -> J s -> V s ->
    J s' /\ mono s s' /\ V s' /\ val_ok s' (ret_value r).
Proof. exact run_J. Qed.
Print Assumptions C02_ids_issued_invariant.

(* random_reference only ever hands out issued ids: the row history stays within the id
   counters (hist_ok, part of V), for targets by table name and by nickname, every draw *)
Theorem C02_random_reference_issued :
  forall e target s s' v, random_reference e target s = Ok (s', v) -> V s -> V s' /\ val_ok s' v.
Proof. exact random_reference_V. Qed.
Print Assumptions C02_random_reference_issued.

(* a forward reference whose target is never created makes the run fail *)
Theorem C02_unfulfilled_fails :
  forall e stmts c s s1 r,
    run fuel0 e (TStmts stmts c) s = Ok (s1, r) -> slots_filled s1 = false ->
    iteration e stmts c s = Err (DGE "references-not-fulfilled").
Proof. intros e stmts c s s1 r E H. unfold iteration. rewrite E. cbn [bind]. rewrite H. reflexivity. Qed.
Print Assumptions C02_unfulfilled_fails.

(* non-vacuity: forward reference by table name and by nickname, dotted path through a
   reference field, reference to a friend's parent; and an unfulfilled forward reference *)
Example C02_ex :
  run_rows (mkRecipe 3 []
    [SObj (Tpl "A" None (Some (FLitInt 2)) false [("b", FRef "B"); ("c", FRef "cc")]
             [SObj (Tpl "D" None None false [("p", FRef "A"); ("pb", FRef "A.b")] [])]);
     SObj (Tpl "B" None None false [] []);
     SObj (Tpl "C" (Some "cc") None false [] [])] []) 1
  = Ok [("A", [("id", OInt 1); ("b", ORef "B" 1); ("c", ORef "C" 1)]);
        ("D", [("id", OInt 1); ("p", ORef "A" 1); ("pb", ORef "B" 1)]);
        ("A", [("id", OInt 2); ("b", ORef "B" 1); ("c", ORef "C" 1)]);
        ("D", [("id", OInt 2); ("p", ORef "A" 2); ("pb", ORef "B" 1)]);
        ("B", [("id", OInt 1)]); ("C", [("id", OInt 1)])].
Proof. vm_compute. reflexivity. Qed.

Example C02_ex_unfulfilled :
  run_rows (mkRecipe 3 []
    [SObj (Tpl "A" None None false [("b", FRef "B")] []);
     SObj (Tpl "B" None (Some (FLitInt 0)) false [] [])] []) 1
  = Err (DGE "references-not-fulfilled").
Proof. vm_compute. reflexivity. Qed.

(* random references by table name and by nickname (a nickname of a friend template), two
   iterations, draws 1,0,0,0: every target is a row of the same output *)
Example C02_ex_random :
  run_rows (mkRecipe 3 []
    [SObj (Tpl "A" None (Some (FLitInt 2)) false [] [SObj (Tpl "K" (Some "kid") None false [] [])]);
     SObj (Tpl "P" None None false [("r", FRandRef "A"); ("q", FRandRef "kid")] [])] [1; 0; 0; 0]) 2
  = Ok [("A", [("id", OInt 1)]); ("K", [("id", OInt 1)]); ("A", [("id", OInt 2)]); ("K", [("id", OInt 2)]);
        ("P", [("id", OInt 1); ("r", ORef "A" 2); ("q", ORef "K" 1)]);
        ("A", [("id", OInt 3)]); ("K", [("id", OInt 3)]); ("A", [("id", OInt 4)]); ("K", [("id", OInt 4)]);
        ("P", [("id", OInt 2); ("r", ORef "A" 3); ("q", ORef "K" 3)])].
Proof. vm_compute. reflexivity. Qed.

(* Under a row-count target: the run equals a repetition run (C07_interp_target_fresh), hence no
   reference it writes dangles. *)
From SFV Require Import StopInterp.
From SFV Require Stopping.
From SFV.P Require Import StopInterpP.
Theorem C02_no_dangling_target :
  forall (r : recipe) T N fuel s j,
    Stopping.proper_table T -> hidden T = false ->
    run_target r (Some (Stopping.mkCrit T N)) fuel None = Ok (s, j) ->
    forall row n U i, In row (out s) -> In (n, ORef U i) (snd row) -> hidden U = false ->
      exists row', In row' (out s) /\ fst row' = U /\ orow_id row' = [i].
Proof.
  intros r T N fuel s j HT Hv H.
  destruct (target_run_fresh r T N fuel s j HT Hv H) as (_ & _ & Hrun & _).
  exact (no_dangling_fresh r j s Hrun).
Qed.
Print Assumptions C02_no_dangling_target.
