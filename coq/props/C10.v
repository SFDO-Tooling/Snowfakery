(* C10 — random_reference picks existing, correctly scoped targets; unique never repeats.
   Model: theories/RowHistory.v (row_history.py) on top of theories/RandRange.v.
   Proofs: proofs/RowHistoryP.v, proofs/RandRangeP.v.                                     *)
From Coq Require Import ZArith List Permutation.
From SFV Require Import C10Cases.
From SFV Require Import Base RandRange RowHistory.
From SFV.P Require Import RandRangeP RowHistoryP.
Import ListNotations. Open Scope string_scope. Open Scope Z_scope.

(* the invariant "nickname ordinals are dense" holds in every reachable history *)
Theorem C10_history_invariant :
  (forall counters names, NickInv (rh_init counters names)) /\
  (forall h t nick i, NickInv h -> NickInv (save_row h t nick i)) /\
  (forall h, NickInv h -> NickInv (reset_locals h)).
Proof.
  split; [exact NickInv_init|]. split; [exact NickInv_save|].
  (* reset_locals touches neither the rows nor the nickname counters *)
  intros h H. exact H.
Qed.
Print Assumptions C10_history_invariant.

(* by nickname: whatever number in the requested interval is drawn, the reference names a row
   that was saved under that nickname, in the nickname's table *)
Theorem C10_nickname_target_exists :
  forall h name t d tbl i,
    NickInv h -> lookupS name (n2t h) = Some t ->
    random_ref h name d = Ok (tbl, i) ->
    tbl = t /\ exists r, In r (hrows h) /\ h_table r = t /\ h_nick r = Some name /\ h_id r = i.
Proof. intros h name t d tbl i _. apply nick_ref_sound. Qed.
Print Assumptions C10_nickname_target_exists.

Theorem C10_nickname_always_succeeds :
  forall h name t,
    NickInv h -> NickTables h -> lookupS name (n2t h) = Some t ->
    get0 name (nc h) <> 0 -> 0 <= get0 name (lnc h) ->
    exists lo hi, ref_range h name = Ok (Some name, t, lo, hi) /\ 1 <= lo <= hi /\ hi = get0 name (nc h) /\
      forall d, lo <= d <= hi -> exists i, random_ref h name d = Ok (t, i).
Proof. exact nick_ref_total. Qed.
Print Assumptions C10_nickname_always_succeeds.

(* by table name: the target is the drawn id, it lies in [min_id, last saved id], and it is
   above the per-iteration lower bound whenever the iteration has saved a row (scoping) *)
Theorem C10_table_target_scoped :
  forall h name d tbl i,
    lookupS name (n2t h) = None ->
    random_ref h name d = Ok (tbl, i) ->
    tbl = name /\ i = d /\ exists m, lookupZ name (tc h) = Some m /\ d <= m /\
      (if m <? get0 name (lc h) + 1 then 1 <= d else get0 name (lc h) < d).
Proof. exact table_ref_range. Qed.
Print Assumptions C10_table_target_scoped.

(* ... and, when the table's ids were saved in increasing order (no id reserved by a forward
   reference), it names a saved row of the table or an id issued before this history began *)
Theorem C10_table_target_exists_partial :
  forall T base ops h0 d tbl i,
    dense_from T base h0 -> ordered_for T h0 ops ->
    lookupS T (n2t (apply_ops h0 ops)) = None ->
    random_ref (apply_ops h0 ops) T d = Ok (tbl, i) ->
    tbl = T /\ ((exists r, In r (hrows (apply_ops h0 ops)) /\ h_table r = T /\ h_id r = i) \/ i <= base).
Proof. intros T base ops h0 d tbl i HD HO. exact (table_ref_dense T base _ d tbl i (ordered_dense T base ops h0 HD HO)). Qed.
Print Assumptions C10_table_target_exists_partial.

(* K3: without the ordering hypothesis the statement is false — witness: id 1 reserved by a
   forward reference, rows 2 and 3 saved, the draw 1 names a row that does not exist yet *)
Theorem C10_refuted_forward_reserved :
  exists h d, random_ref h "A" d = Ok ("A", d) /\
              ~ exists r, In r (hrows h) /\ h_table r = "A" /\ h_id r = d.
Proof.
  exists (save_row (save_row (rh_init [] [("A", "A")]) "A" None 2) "A" None 3), 1.
  split; [vm_compute; reflexivity|].
  intros (r & Hin & _ & Hid). cbn in Hin. destruct Hin as [<-|[<-|[]]]; cbn in Hid; discriminate.
Qed.
Print Assumptions C10_refuted_forward_reserved.

(* unique: one context never returns a number twice, whatever intervals are requested *)
Theorem C10_unique_never_repeats :
  forall reqs oracle vs, uchain None reqs oracle = Ok vs -> NoDup vs.
Proof. intros reqs oracle vs. exact (uchain_no_repeat reqs None oracle [] [] vs (conj eq_refl eq_refl)). Qed.
Print Assumptions C10_unique_never_repeats.

(* unique: when the range is exhausted the draw is a DataGenError, and at that point exactly
   the integers of the requested range have been used (C12_extend_complete) *)
Theorem C10_unique_exhaustion_is_error :
  forall u a b oracle u1 u2,
    (match u with None => urr_init a (b + 1) oracle | Some u0 => urr_set_new_range u0 a (b + 1) end) = Ok u1 ->
    urr_next u1 = Ok (None, u2) ->
    unique_draw u a b oracle = Err (DGE "no-unused-target").
Proof.
  intros u a b oracle u1 u2 H1 H2. unfold unique_draw. rewrite H1. cbn [bind]. rewrite H2. reflexivity.
Qed.
Print Assumptions C10_unique_exhaustion_is_error.

Theorem C10_unique_uses_every_target :
  forall start stop oracle ops u tr u1 u2,
    urr_init start stop oracle = Ok u -> extend_only start ops ->
    urr_run u ops = Ok (tr, u1) -> urr_next u1 = Ok (None, u2) ->
    Permutation (produced tr) (Zseq start (Z.to_nat (u_cur_max u1 - start))) /\ stop <= u_cur_max u1.
Proof. exact extend_complete. Qed.
Print Assumptions C10_unique_uses_every_target.

(* ---------------------------------------------------------------- several call sites (round 3)
   Model: RowHistory.v, "several call sites": the table of call sites kept by
   Interpreter.get_contextual_state (one entry per `random_reference:` written in the recipe:
   parent row + its own RandomReferenceContext), the `scope` argument, one stream of random draws
   shared by every consumer.  s_old st ++ s_cur st = the numbers a call site has drawn under
   its current parent row, in order (ghost fields maintained by mstep_uref).                 *)
Open Scope list_scope.

(* scope: the default scope is the interval of the first part of this file; the global scope
   always starts at the first row *)
Theorem C10_scope_argument :
  (forall h name, ref_range_sc h name false = ref_range h name) /\
  (forall h name nick table lo hi, ref_range_sc h name true = Ok (nick, table, lo, hi) -> lo = 1).
Proof. split; [exact ref_range_sc_local|exact ref_range_sc_global]. Qed.
Print Assumptions C10_scope_argument.

(* a unique reference that draws d inside the requested interval names the row a plain
   reference with draw d names (so C10_nickname_target_exists / C10_table_target_scoped /
   C10_table_target_exists_partial speak about unique references too); by nickname - in any
   scope - it is a row saved under that nickname *)
Theorem C10_unique_target_is_a_plain_target :
  (forall h name nick table lo hi d,
     ref_range_sc h name false = Ok (nick, table, lo, hi) -> lo <= d <= hi ->
     random_ref h name d = resolve_draw h nick table d) /\
  (forall h name t d tbl i,
     resolve_draw h (Some name) t d = Ok (tbl, i) ->
     tbl = t /\ exists r, In r (hrows h) /\ h_table r = t /\ h_nick r = Some name /\ h_nid r = d /\ h_id r = i).
Proof. split; [exact unique_target_as_plain|exact nick_resolve_sound]. Qed.
Print Assumptions C10_unique_target_is_a_plain_target.

(* the invariant of the table of call sites: holds initially, kept by every operation of every
   script (saves, resets, plain references, unique references at any site under any parent) *)
Theorem C10_call_sites_invariant :
  SitesInv [] /\
  (forall m op o m1, SitesInv (m_sites m) -> mstep m op = (o, Some m1) -> SitesInv (m_sites m1)) /\
  (forall ops m, SitesInv (m_sites m) -> SitesInv (m_sites (snd (mrun m ops)))).
Proof. split; [exact SitesInv_nil|split; [exact mstep_inv|exact mrun_inv]]. Qed.
Print Assumptions C10_call_sites_invariant.

(* ONE unique reference, at call site s, under parent row p: the number drawn lies in the
   interval the row history asks for at that moment (rows of the current iteration when it has
   some: only values of the new window appear after a move), it was never drawn by this call
   site under this parent row, it is what the site records, and every other call site's entry
   is left exactly as it was *)
Theorem C10_call_site_step :
  forall h ss orc s p name glob nick table lo hi t i ss' orc',
    SitesInv ss ->
    ref_range_sc h name glob = Ok (nick, table, lo, hi) ->
    mstep_uref h ss orc s p name glob = Ok (t, i, ss', orc') ->
    exists d st',
      lo <= d <= hi /\ resolve_draw h nick table d = Ok (t, i) /\
      ~ In d (s_old (site_get ss s p) ++ s_cur (site_get ss s p)) /\
      lookupN s ss' = Some st' /\ s_parent st' = p /\
      s_old st' ++ s_cur st' = (s_old (site_get ss s p) ++ s_cur (site_get ss s p)) ++ [d] /\
      (forall s', s' <> s -> lookupN s' ss' = lookupN s' ss) /\
      SitesInv ss'.
Proof. exact site_step. Qed.
Print Assumptions C10_call_site_step.

(* a new parent row (or a first use) starts from nothing: the scope of `parent` *)
Theorem C10_parent_scope_starts_empty :
  forall ss s p,
    (forall st, lookupN s ss = Some st -> s_parent st <> p) ->
    s_old (site_get ss s p) ++ s_cur (site_get ss s p) = [] /\ s_ctx (site_get ss s p) = None.
Proof.
  intros ss s p H. unfold site_get. destruct (lookupN s ss) as [st|] eqn:E; [|split; reflexivity].
  destruct (s_parent st =? p) eqn:E2; [|split; reflexivity].
  exfalso. apply (H st eq_refl). apply Z.eqb_eq. exact E2.
Qed.
Print Assumptions C10_parent_scope_starts_empty.

(* "Cannot find an unused X" at a call site means that THIS call site, under the current parent
   row, has used every number of the requested interval in its current window: what other call
   sites aimed at the same target have used is irrelevant, every eligible target can be used *)
Theorem C10_call_site_refused_only_after_using_everything :
  forall h ss orc s p name glob nick table lo hi,
    SitesInv ss ->
    ref_range_sc h name glob = Ok (nick, table, lo, hi) ->
    mstep_uref h ss orc s p name glob = Err (DGE "no-unused-target") ->
    Permutation (s_cur (site_get ss s p)) (Zseq lo (Z.to_nat (hi + 1 - lo))).
Proof. exact site_refused. Qed.
Print Assumptions C10_call_site_refused_only_after_using_everything.

(* the outcome at a call site depends on the other call sites' entries in no way *)
Theorem C10_call_site_outcome_is_local :
  forall h ss1 ss2 orc s p name glob,
    site_get ss1 s p = site_get ss2 s p ->
    match mstep_uref h ss1 orc s p name glob, mstep_uref h ss2 orc s p name glob with
    | Ok (r1, ss1', o1), Ok (r2, ss2', o2) => r1 = r2 /\ o1 = o2 /\ lookupN s ss1' = lookupN s ss2'
    | Err e1, Err e2 => e1 = e2
    | _, _ => False
    end.
Proof. exact site_outcome_local. Qed.
Print Assumptions C10_call_site_outcome_is_local.

(* whole runs: whatever the script (any number of call sites, parents, scopes, targets) and
   whatever the random draws, no call site has drawn a number twice under its parent row *)
Theorem C10_call_sites_never_repeat :
  forall counters names orc ops s st,
    lookupN s (m_sites (snd (mrun (mkM (rh_init counters names) [] orc) ops))) = Some st ->
    NoDup (s_old st ++ s_cur st).
Proof. intros * H. exact (SiteInv_nodup _ (mrun_inv ops (mkM _ [] _) SitesInv_nil _ _ H)). Qed.
Print Assumptions C10_call_sites_never_repeat.

(* the LIFETIME of a uniqueness scope (round 4): as long as a call site is not evaluated under a
   different parent row, its entry survives every operation - saves, plain references, unique
   references at other call sites and iteration ends (MReset) - and only grows: what it has
   drawn so far is a prefix of what it has drawn later, and the whole is repetition-free.  So a
   `parent:` row that outlives an iteration (a just_once row) keeps ONE scope over all the
   iterations; an iteration end hands the table of call sites on unchanged. *)
Theorem C10_scope_outlives_iterations :
  (forall ops m s p st,
     SitesInv (m_sites m) -> Forall (keeps_parent s p) ops ->
     lookupN s (m_sites m) = Some st -> s_parent st = p ->
     exists st' l, lookupN s (m_sites (snd (mrun m ops))) = Some st' /\ s_parent st' = p /\
                   s_old st' ++ s_cur st' = (s_old st ++ s_cur st) ++ l /\
                   NoDup (s_old st' ++ s_cur st')) /\
  (forall m, mstep m MReset = (ONone, Some (mkM (reset_locals (m_h m)) (m_sites m) (m_orc m)))).
Proof. split; [exact scope_outlives_iterations|exact reset_keeps_sites]. Qed.
Print Assumptions C10_scope_outlives_iterations.

(* non-vacuity: four just_once targets, one persistent parent row (token 1), two unique picks
   per iteration at one call site: the third iteration is refused (ids 1..4 are used up), and
   the second iteration never returns a row of the first *)
Example C10_scope_ex :
  fst (mrun (mkM (rh_init [] [("A", "A")]) [] [0; 0; 0; 0; 0; 0; 0; 0])
    [MSave "A" None 1; MSave "A" None 2; MSave "A" None 3; MSave "A" None 4;
     MURef 1 1 "A" false; MURef 1 1 "A" false; MReset;
     MURef 1 1 "A" false; MURef 1 1 "A" false; MReset;
     MURef 1 1 "A" false])
  = [ONone; ONone; ONone; ONone; ORefd "A" 1; ORefd "A" 2; ONone; ORefd "A" 3; ORefd "A" 4; ONone;
     OErr (DGE "no-unused-target")].
Proof. vm_compute. reflexivity. Qed.

(* `parent:` naming a plain VALUE (round 5).  field_vars().get(parent) may be an object row or any value the recipe
   computes (a field of the row being built, a hidden field, a variable), and the stored parent is compared with
   `!=`: the parent token p of the model stands for the class of EQUAL parent values - two evaluations whose
   parents are equal values carried by different Python objects have the same token.  (1) a call site evaluated
   under a parent equal to the stored one continues its entry as it is (with C10_scope_outlives_iterations: for as
   long as the value lasts, over any other operations; with C10_call_site_step: never a number twice); (2) after a
   unique reference under parent p' the entry belongs to p': a different parent p evaluated next starts from
   nothing - also when p was this site's parent before (a parent value that comes back opens a new scope). *)
Theorem C10_scope_is_keyed_by_parent_value :
  (forall ss s p st, lookupN s ss = Some st -> s_parent st = p -> site_get ss s p = st) /\
  (forall h ss orc s p' name glob r ss' orc' p,
     mstep_uref h ss orc s p' name glob = Ok (r, ss', orc') -> p <> p' ->
     site_get ss' s p = mkSite p None [] []).
Proof. split; [exact site_get_same|exact uref_other_parent]. Qed.
Print Assumptions C10_scope_is_keyed_by_parent_value.

(* non-vacuity: two targets; one call site evaluated for rows whose parent is the VALUE 1000, 1000, 1001, 1001,
   1000, 1000, 1000: each run of equal values gets both targets once, the value 1000 coming back starts a new
   scope, and the third evaluation under it is refused *)
Example C10_parent_value_ex :
  fst (mrun (mkM (rh_init [] [("A", "A")]) [] [0; 0; 0; 0; 0; 0; 0; 0; 0; 0; 0; 0])
    [MSave "A" None 1; MSave "A" None 2;
     MURef 1 1000 "A" false; MURef 1 1000 "A" false; MURef 1 1001 "A" false; MURef 1 1001 "A" false;
     MURef 1 1000 "A" false; MURef 1 1000 "A" false; MURef 1 1000 "A" false])
  = [ONone; ONone; ORefd "A" 1; ORefd "A" 2; ORefd "A" 1; ORefd "A" 2; ORefd "A" 1; ORefd "A" 2;
     OErr (DGE "no-unused-target")].
Proof. vm_compute. reflexivity. Qed.

(* numbers and rows: by table name the row id is the number drawn; by nickname two different
   numbers never name the same row as long as the history holds no two rows with the same
   table and id (kept by every save of a fresh id) - so "no number twice" is "no row twice" *)
Theorem C10_distinct_numbers_are_distinct_rows :
  (forall counters names, IdsUnique (rh_init counters names)) /\
  (forall h t n i, IdsUnique h -> (forall r, In r (hrows h) -> h_table r = t -> h_id r <> i) ->
                   IdsUnique (save_row h t n i)) /\
  (forall h, IdsUnique h -> IdsUnique (reset_locals h)) /\
  (forall h n t d1 d2 tbl i, IdsUnique h ->
     resolve_draw h (Some n) t d1 = Ok (tbl, i) -> resolve_draw h (Some n) t d2 = Ok (tbl, i) -> d1 = d2) /\
  (forall h t d1 d2 r, resolve_draw h None t d1 = Ok r -> resolve_draw h None t d2 = Ok r -> d1 = d2).
Proof.
  split; [intros counters names r1 r2 []|]. split; [exact IdsUnique_save|]. split; [intros h H; exact H|].
  split; [exact nick_numbers_name_distinct_rows|].
  intros h t d1 d2 r H1 H2. cbn [resolve_draw] in H1, H2. congruence.
Qed.
Print Assumptions C10_distinct_numbers_are_distinct_rows.

(* non-vacuity: two call sites on the same three targets each get all three; the next
   iteration moves both to the new rows; a parented site starts afresh under a new parent;
   a fourth draw in one window is refused *)
Example C10_sites_ex :
  fst (mrun (mkM (rh_init [] [("A", "A")]) [] [0; 0; 1; 1; 0; 0; 0; 0; 0; 0; 0; 0])
    [MSave "A" None 1; MSave "A" None 2; MSave "A" None 3;
     MURef 1 0 "A" false; MURef 2 0 "A" false; MURef 1 0 "A" false; MURef 2 0 "A" false;
     MURef 1 0 "A" false; MURef 2 0 "A" false;
     MReset; MSave "A" None 4;
     MURef 1 0 "A" false; MURef 2 0 "A" false;
     MURef 3 7 "A" false; MURef 3 8 "A" false; MURef 3 8 "A" false])
  = [ONone; ONone; ONone;
     ORefd "A" 1; ORefd "A" 2; ORefd "A" 2; ORefd "A" 1; ORefd "A" 3; ORefd "A" 3;
     ONone; ONone;
     ORefd "A" 4; ORefd "A" 4;
     ORefd "A" 4; ORefd "A" 4; OErr (DGE "no-unused-target")].
Proof. vm_compute. reflexivity. Qed.

(* non-vacuity *)
Example C10_ex :
  run_script (rh_init [] [("A", "A"); ("aa", "A")]) None [(0, 0); (1, 0)]
    [HSave "A" None 1; HSave "A" (Some "aa") 2; HSave "A" None 3; HRef "aa" 1; HRef "A" 2;
     HReset; HRef "A" 3; HSave "A" None 4; HRef "A" 4; HURef "A"; HSave "A" None 5; HURef "A"; HURef "A"]
  = [ONone; ONone; ONone; ORefd "A" 2; ORefd "A" 2; ONone; ORefd "A" 3; ONone; ORefd "A" 4;
     ORefd "A" 4; ONone; ORefd "A" 5; OErr (DGE "no-unused-target")].
Proof. vm_compute. reflexivity. Qed.
