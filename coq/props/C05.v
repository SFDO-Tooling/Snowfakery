(* C05 — the continuation file is a complete, re-loadable snapshot of persistent state.
   Model: theories/Continuation.v (Globals / IdManager / Transients / ObjectRow
   __getstate__ / __setstate__, load_continuation_yaml / save_continuation_yaml, SafeDumper's
   representable types).  The statements; each is a corollary of a theorem of proofs/ContinuationP.v or
   proofs/YamlScalarP.v.

   [save g]  = the key-sorted tree yaml.dump hands to the emitter (= what yaml.safe_load reads back),
   [load t]  = Globals.__setstate__ on such a tree,
   [restored g g'] = id counters, start ids, every just_once row reachable by nickname or by
   table name with every field (value and type tag), nickname-to-table bindings, today,
   inter-table references and the rebuilt forward-reference slots agree.
   The YAML text layer: (a) abstractly, a pair of functions with the round-trip law as the only
   hypothesis (C05_file_read_write, C05_file_rewrite_same); (b) as a model (theories/YamlScalar.v,
   Section YamlModel of Continuation.v): representer, the serializer's `implicit` pair computed with
   the resolver, the emitter's choice of style and of writing the tag, the parser / composer tag
   resolution and the constructors for str / int / bool / null.  There the law is a THEOREM
   (C05_yaml_roundtrip_from_syntax) from two narrower laws: [syntax_law] (the character level gives
   back structure, texts, plain-ness and explicit tags) and [codec_law] (printing and parsing of
   float / date / datetime / Decimal invert each other); every type-related clause of the property
   ("strings that look like numbers or keywords stay strings; ints of any size ... keep their type")
   is proved for EVERY resolver (C05_scalar_keeps_tag, C05_string_stays_string, C05_int_of_any_size).
   Inter-table references while a run continues: [record_deps] (OrderedSet.add), C05_deps_*. *)
From Coq Require Import ZArith List Bool String.
From SFV Require Import Base Continuation.
From SFV.P Require Import YamlScalarP ContinuationP.
Import ListNotations. Open Scope string_scope.

(* Full statement of the property at tree level:
     forall g, wf g = true -> is_ok (dump_check g) = true /\
               exists g', load (save g) = Ok g' /\ restored g g'.
   The faithful model refutes it twice (C05_row_valued_field_refuted, C05_unrepresentable_value_refuted);
   [snapshot_ok] excludes exactly those two classes of field values (rows; forward / random /
   literal references).  Decimals were in the second class until the Decimal representer was
   added (C05_decimal_value_restored). *)

(* loading the written tree restores every component *)
Theorem C05_load_save :
  forall g, snapshot_ok g = true -> exists g', load (save g) = Ok g' /\ restored g g'.
Proof. intros g S. exists (norm g). split; [apply load_save_norm|apply norm_restored, S]. Qed.
Print Assumptions C05_load_save.

(* without the restriction on field values: everything except row-valued fields is restored *)
Theorem C05_load_save_partial :
  forall g, wf g = true -> exists g', load (save g) = Ok g' /\ restored_scalars g g'.
Proof. intros g W. exists (norm g). split; [apply load_save_norm|apply norm_restored_scalars, W]. Qed.
Print Assumptions C05_load_save_partial.

(* loading a file and saving it again reproduces it *)
Theorem C05_idempotent :
  forall g g', nodup_deps (g_deps g) = true -> load (save g) = Ok g' -> save g' = save g.
Proof. intros g g' Hd H. rewrite load_save_norm in H. injection H as <-. apply save_norm, Hd. Qed.
Print Assumptions C05_idempotent.

(* ... for every chain of write / read steps *)
Theorem C05_chain :
  forall n g g', nodup_deps (g_deps g) = true -> chain n g = Ok g' ->
                 save g' = save g /\ nodup_deps (g_deps g') = true.
Proof.
  intros [|n] g g' Hd H; [injection H as <-; auto|].
  rewrite (chain_S n g Hd) in H. destruct (dump_check g); [injection H as <-|discriminate].
  now rewrite save_norm, norm_deps.
Qed.
Print Assumptions C05_chain.

Theorem C05_chain_total :
  forall n g, nodup_deps (g_deps g) = true -> is_ok (dump_check g) = true ->
              exists g', chain n g = Ok g' /\ dump_check g' = dump_check g.
Proof.
  intros [|n] g Hd Hok; [exists g; auto|].
  exists (norm g). split; [|apply dump_check_norm, Hd].
  rewrite (chain_S n g Hd). destruct (dump_check g); [reflexivity|discriminate Hok].
Qed.
Print Assumptions C05_chain_total.

(* writing succeeds *)
Theorem C05_dump_total :
  forall g, snapshot_ok g = true -> dump_check g = Ok (save g).
Proof. exact dump_total. Qed.
Print Assumptions C05_dump_total.

(* exactly when writing fails: today or a non-row field value has a type without a representer *)
Theorem C05_dump_spec :
  forall g, dump_check g =
            if representable_value (g_today g) &&
               forallb (fun kv => row_dumpable (snd kv)) (g_nicks g) &&
               forallb (fun kv => row_dumpable (snd kv)) (g_tables g)
            then Ok (save g) else representer_error.
Proof. intro g. unfold dump_check. now rewrite representable_save. Qed.
Print Assumptions C05_dump_spec.

(* ---- the same through the text of the file, assuming the round-trip law of the text layer ---- *)
Theorem C05_file_read_write :
  forall (text : Type) (yaml_dump : tree -> option text) (yaml_load : text -> option tree),
    (forall t, representable (sort_tree t) = true ->
               exists txt, yaml_dump (sort_tree t) = Some txt /\ yaml_load txt = Some (sort_tree t)) ->
    forall g, snapshot_ok g = true ->
      exists txt g', write_file text yaml_dump g = Ok txt /\
                     read_file text yaml_load txt = Ok g' /\ restored g g'.
Proof. intros text yd yl law g S. apply (read_write text yd yl (fun _ => true)); auto. Qed.
Print Assumptions C05_file_read_write.

Theorem C05_file_rewrite_same :
  forall (text : Type) (yaml_dump : tree -> option text) (yaml_load : text -> option tree),
    (forall t, representable (sort_tree t) = true ->
               exists txt, yaml_dump (sort_tree t) = Some txt /\ yaml_load txt = Some (sort_tree t)) ->
    forall n g txt, nodup_deps (g_deps g) = true -> write_file text yaml_dump g = Ok txt ->
                    rewrite_chain text yaml_dump yaml_load n txt = Ok txt.
Proof.
  intros text yd yl law n g txt Hd.
  apply (rewrite_chain_same text yd yl (fun _ => true)) with (g := g); auto.
Qed.
Print Assumptions C05_file_rewrite_same.

(* ---- the text layer as a model: which type a scalar has after the round trip ---- *)
(* Whatever the implicit resolver, the default tag, the emitter's analysis of the text and the
   context are: the composer gives every scalar the tag (and text) the representer gave it. *)
Theorem C05_scalar_keeps_tag :
  forall (resolve : string -> ytag) (default_tag : ytag) (analyze : string -> analysis)
         (simple_key flow : bool) (n : snode),
    compose_scalar resolve default_tag (emit_scalar resolve default_tag analyze simple_key flow n) = n.
Proof. exact compose_emit. Qed.
Print Assumptions C05_scalar_keeps_tag.

(* ... in particular a str stays a str, whatever its text looks like to the resolver *)
Theorem C05_string_stays_string :
  forall (resolve : string -> ytag) (default_tag : ytag) (analyze : string -> analysis)
         (simple_key flow : bool) (s : string),
    composed_tag resolve default_tag
                 (emit_scalar resolve default_tag analyze simple_key flow (mkSN TgStr s)) = TgStr.
Proof. intros. exact (f_equal sn_tag (compose_emit resolve default_tag analyze simple_key flow (mkSN TgStr s))). Qed.
Print Assumptions C05_string_stays_string.

(* the mechanism: a scalar is written plain only if the loader's resolver would give its text the
   node's own tag; the same holds for any style handed in from outside (an observed file) *)
Theorem C05_plain_only_if_resolved :
  forall (resolve : string -> ytag) (default_tag : ytag) (analyze : string -> analysis)
         (simple_key flow : bool) (n : snode),
    ps_plain (emit_scalar resolve default_tag analyze simple_key flow n) = true ->
    resolve (sn_text n) = sn_tag n.
Proof.
  intros *. unfold emit_scalar. cbn [ps_plain]. intro H. apply style_plain_implicit in H.
  symmetry. now apply ytag_eqb_eq.
Qed.
Print Assumptions C05_plain_only_if_resolved.

Theorem C05_observed_style_keeps_tag :
  forall (resolve : string -> ytag) (default_tag : ytag) (plain : bool) (n : snode) (p : pscalar),
    emit_scalar_as resolve default_tag plain n = Some p -> compose_scalar resolve default_tag p = n.
Proof. exact compose_emit_as. Qed.
Print Assumptions C05_observed_style_keeps_tag.

(* the regular-expression matcher the resolver model runs on decides the usual meaning of a regular
   expression: the eight patterns of YamlScalar.v mean what they say *)
Theorem C05_regex_matcher_correct : forall r s, re_match r s = true <-> lang r s.
Proof. exact re_match_lang. Qed.
Print Assumptions C05_regex_matcher_correct.

(* ints of any size: str(n) read back by construct_yaml_int is n *)
Theorem C05_int_of_any_size : forall z, construct_int (int_text z) = Some z.
Proof. exact construct_int_text. Qed.
Print Assumptions C05_int_of_any_size.

(* ... and the resolver (PyYAML's eight patterns as modelled) recognises str(n) as an int whatever the
   size of n: no pattern filed before `int` matches it, the third alternative of `int` does *)
Theorem C05_int_text_recognised : forall z, resolve_plain (int_text z) = TgInt.
Proof. exact int_text_resolves. Qed.
Print Assumptions C05_int_text_recognised.

(* the same for whole documents, mapping keys included *)
Theorem C05_tree_keeps_tags :
  forall (resolve : string -> ytag) (default_tag : ytag) (analyze : string -> analysis)
         (simple_key : string -> bool) (n : ntree),
    compose resolve default_tag (present resolve default_tag analyze simple_key n) = n.
Proof. exact compose_present. Qed.
Print Assumptions C05_tree_keeps_tags.

(* the round-trip law of the text layer, derived from the two narrower laws *)
Theorem C05_yaml_roundtrip_from_syntax :
  forall float_text date_text datetime_text float_read timestamp_read decimal_read token_ok,
    codec_law float_text date_text datetime_text float_read timestamp_read decimal_read token_ok ->
    forall resolve default_tag analyze simple_key text emit_chars scan_chars,
      syntax_law resolve default_tag analyze simple_key text emit_chars scan_chars ->
      forall t, representable t = true -> tokens_ok token_ok t = true ->
        exists txt,
          yaml_dump_m float_text date_text datetime_text resolve default_tag analyze simple_key
                      text emit_chars t = Some txt /\
          yaml_load_m float_read timestamp_read decimal_read resolve default_tag text scan_chars txt
          = Some t.
Proof. exact yaml_roundtrip_m. Qed.
Print Assumptions C05_yaml_roundtrip_from_syntax.

(* writing raises RepresenterError exactly for the values without a representer *)
Theorem C05_model_dump_fails :
  forall float_text date_text datetime_text resolve default_tag analyze simple_key text emit_chars t,
    representable t = false ->
    yaml_dump_m float_text date_text datetime_text resolve default_tag analyze simple_key
                text emit_chars t = None.
Proof.
  intros * R. rewrite <- (represent_tree_defined float_text date_text datetime_text) in R.
  unfold yaml_dump_m. now destruct (represent_tree _ _ _ t).
Qed.
Print Assumptions C05_model_dump_fails.

(* the two file-level theorems over the modelled text layer *)
Theorem C05_file_read_write_model :
  forall float_text date_text datetime_text float_read timestamp_read decimal_read token_ok,
    codec_law float_text date_text datetime_text float_read timestamp_read decimal_read token_ok ->
    forall resolve default_tag analyze simple_key text emit_chars scan_chars,
      syntax_law resolve default_tag analyze simple_key text emit_chars scan_chars ->
      forall g, snapshot_ok g = true -> tokens_ok token_ok (save g) = true ->
        exists txt g',
          write_file text (yaml_dump_m float_text date_text datetime_text resolve default_tag analyze
                                       simple_key text emit_chars) g = Ok txt /\
          read_file text (yaml_load_m float_read timestamp_read decimal_read resolve default_tag
                                      text scan_chars) txt = Ok g' /\
          restored g g'.
Proof.
  intros. apply (read_write _ _ _ (tokens_ok token_ok)); try assumption.
  intros. eapply yaml_roundtrip_m; eassumption.
Qed.
Print Assumptions C05_file_read_write_model.

Theorem C05_file_rewrite_same_model :
  forall float_text date_text datetime_text float_read timestamp_read decimal_read token_ok,
    codec_law float_text date_text datetime_text float_read timestamp_read decimal_read token_ok ->
    forall resolve default_tag analyze simple_key text emit_chars scan_chars,
      syntax_law resolve default_tag analyze simple_key text emit_chars scan_chars ->
      forall n g txt, nodup_deps (g_deps g) = true -> tokens_ok token_ok (save g) = true ->
        write_file text (yaml_dump_m float_text date_text datetime_text resolve default_tag analyze
                                     simple_key text emit_chars) g = Ok txt ->
        rewrite_chain text
                      (yaml_dump_m float_text date_text datetime_text resolve default_tag analyze
                                   simple_key text emit_chars)
                      (yaml_load_m float_read timestamp_read decimal_read resolve default_tag
                                   text scan_chars) n txt = Ok txt.
Proof.
  intros. apply (rewrite_chain_same _ _ _ (tokens_ok token_ok)) with (g := g); try assumption.
  intros. eapply yaml_roundtrip_m; eassumption.
Qed.
Print Assumptions C05_file_rewrite_same_model.

(* ---- inter-table references while a run continues (OrderedSet.add for every reference met) ---- *)
(* what was recorded so far stays in front, in its order *)
Theorem C05_deps_prefix :
  forall news l, exists tail, record_deps l news = (l ++ tail)%list.
Proof. exact record_prefix. Qed.
Print Assumptions C05_deps_prefix.

(* a run that meets only known references leaves the list (hence the file) unchanged *)
Theorem C05_deps_unchanged_when_known :
  forall news l, (forall d, In d news -> In d l) -> record_deps l news = l.
Proof. exact record_known. Qed.
Print Assumptions C05_deps_unchanged_when_known.

(* exactly the old and the newly met references are recorded, each once *)
Theorem C05_deps_complete : forall news l d, In d news -> In d (record_deps l news).
Proof. intros news l d H. apply in_record_deps. now right. Qed.
Print Assumptions C05_deps_complete.

Theorem C05_deps_sound : forall news l d, In d (record_deps l news) -> In d l \/ In d news.
Proof. intros news l d. apply in_record_deps. Qed.
Print Assumptions C05_deps_sound.

Theorem C05_deps_stay_a_set :
  forall news l, nodup_deps l = true -> nodup_deps (record_deps l news) = true.
Proof.
  unfold record_deps. induction news as [|x r IH]; intros l H; cbn [fold_left]; [exact H|].
  now apply IH, dep_add_nodup.
Qed.
Print Assumptions C05_deps_stay_a_set.

(* a continued run starts from the references of the file: they stay in front whatever it generates,
   they are the whole list if it meets nothing new, and the (table, field) -> target table lookups
   that the CCI mapping is written from are those of the run that wrote the file *)
Theorem C05_deps_after_load :
  forall g g' news,
    nodup_deps (g_deps g) = true -> load (save g) = Ok g' ->
    (exists tail, continue_deps g' news = (g_deps g ++ tail)%list) /\
    ((forall d, In d news -> In d (g_deps g)) -> continue_deps g' news = g_deps g) /\
    (forall from field, lookup_target (g_deps g') from field = lookup_target (g_deps g) from field).
Proof.
  intros g g' news Hd L. rewrite load_save_norm in L. injection L as <-.
  unfold continue_deps. rewrite norm_deps by exact Hd. auto using record_prefix, record_known.
Qed.
Print Assumptions C05_deps_after_load.

(* a continued run starts from exactly the loaded state, whatever the recipe's templates say *)
Theorem C05_resume_uses_file :
  forall g tpls today, initialize_globals (Some g) tpls today = g.
Proof. reflexivity. Qed.
Print Assumptions C05_resume_uses_file.

(* ---- refutations of the full statement (known findings) ---- *)
(* K1: a row-valued field of a just_once row is not in the file *)
Theorem C05_row_valued_field_refuted :
  exists g, wf g = true /\ is_ok (dump_check g) = true /\
            forall g', load (save g) = Ok g' -> ~ restored g g'.
Proof.
  exists k1_state. split; [vm_compute; reflexivity|]. split; [vm_compute; reflexivity|].
  intros g' H. rewrite load_save_norm in H. injection H as <-.
  apply (row_field_lost k1_state "aa" k1_row "b" "B" 1); reflexivity.
Qed.
Print Assumptions C05_row_valued_field_refuted.

(* K2: forward reference / random reference / literal reference: writing raises *)
Theorem C05_unrepresentable_value_refuted :
  forall v, In v [VSlot "B" (Some 1); VLazy "B" 1; VRef "Zed" 5] ->
            wf (k2_state v) = true /\ dump_check (k2_state v) = representer_error.
Proof.
  intros v H. cbn [In] in H.
  destruct H as [<-|[<-|[<-|[]]]]; split; vm_compute; reflexivity.
Qed.
Print Assumptions C05_unrepresentable_value_refuted.

(* repaired part of K2 (Decimal representer + loader): every Decimal is written and, by
   C05_load_save, restored with its type tag *)
Theorem C05_decimal_value_restored :
  forall txt, snapshot_ok (k2_state (VDec txt)) = true /\
              dump_check (k2_state (VDec txt)) = Ok (save (k2_state (VDec txt))).
Proof. intros txt. split; [reflexivity|now apply dump_total]. Qed.
Print Assumptions C05_decimal_value_restored.

Theorem C05_dump_total_refuted : ~ (forall g, wf g = true -> is_ok (dump_check g) = true).
Proof.
  intros H. specialize (H (k2_state (VSlot "B" (Some 1))) eq_refl). vm_compute in H. discriminate.
Qed.
Print Assumptions C05_dump_total_refuted.

(* ---- non-vacuity: a concrete state with YAML-hostile strings satisfies the hypotheses ---- *)
Definition ex_row : row :=
  mkRow "J" [("s_num", VStr "0012"); ("id", VInt 1); ("s_yes", VStr "yes"); ("null", VStr "null");
             ("big", VInt (2 ^ 200)); ("flt", VFloat "0x1.5555555555555p-2"); ("b", VBool true);
             ("n", VNull); ("d", VDate 737484); ("amount", VDec "1.50"); ("dt", VDateTime 63718534800000123 (Some 19800));
             ("a: b", VStr (bs [97; 10; 98; 9; 194; 133]))].

Definition ex_state : globals :=
  mkGlobals [("P_", 3); ("J", 1)] []
            [("jj", ex_row)] [("J", ex_row)]
            [("jj", "J"); ("P_", "P_"); ("J", "J")] (VDate 738945)
            [mkDep "P_" "J" "owner"; mkDep "J" "K" "b"]
            (mkTr [("jj", "J"); ("P_", "P_"); ("J", "J")] [("P_", 3); ("J", 1)]) [].

Example C05_ex_ok : snapshot_ok ex_state = true.
Proof. vm_compute. reflexivity. Qed.

Example C05_ex_fields_sorted_in_file :
  match save ex_state with
  | TMap (("id_manager", _) :: ("intertable_dependencies", _) :: ("nicknames_and_tables", _) ::
          ("persistent_nicknames", TMap [("jj", TMap [("_tablename", _); ("_values", TMap vs)])]) :: _) =>
    map fst vs = ["a: b"; "amount"; "b"; "big"; "d"; "dt"; "flt"; "id"; "n"; "null"; "s_num"; "s_yes"]
  | _ => False
  end.
Proof. vm_compute. reflexivity. Qed.

Example C05_ex_roundtrip :
  match load (save ex_state) with
  | Ok g' => lookup "s_num" (r_values (match lookup "jj" (g_nicks g') with Some r => r | None => ex_row end))
             = Some (VStr "0012") /\
             lookup "J" (g_start_ids g') = Some 2 /\ g_deps g' = g_deps ex_state /\
             save g' = save ex_state
  | Err _ => False
  end.
Proof. rewrite load_save_norm. do 3 (split; [reflexivity|]). now apply save_norm. Qed.

(* regression of the repaired Decimal case: the former K2 witness round-trips with its type *)
Example C05_ex_decimal_roundtrip :
  match load (save (k2_state (VDec "1.50"))) with
  | Ok g' => match lookup "jj" (g_nicks g'), lookup "J" (g_tables g') with
             | Some r1, Some r2 => lookup "f" (r_values r1) = Some (VDec "1.50") /\
                                   lookup "f" (r_values r2) = Some (VDec "1.50")
             | _, _ => False
             end
  | Err _ => False
  end.
Proof. vm_compute. split; reflexivity. Qed.

Example C05_ex_chain : (do g' <- chain 4 ex_state; dump_check g') = dump_check ex_state.
Proof.
  rewrite (chain_S 3 ex_state eq_refl). destruct (dump_check ex_state) eqn:D; [|reflexivity].
  cbn [bind]. now rewrite (dump_check_norm ex_state eq_refl).
Qed.

Example C05_ex_k1_partial :
  match load (save k1_state) with
  | Ok g' => match lookup "aa" (g_nicks g') with
             | Some r => lookup "b" (r_values r) = None /\ lookup "n" (r_values r) = Some (VInt 5)
             | None => False
             end
  | Err _ => False
  end.
Proof. vm_compute. split; reflexivity. Qed.

(* ---- non-vacuity of the scalar layer: PyYAML's resolver as modelled, on YAML-hostile texts ---- *)
Example C05_ex_resolver :
  map resolve_plain ["0012"; "12"; "-7"; "0x1F"; "1_000"; "190:20:30"; "1e5"; "1.0e+5"; ".inf"; "-.INF"; ".NaN";
                     "yes"; "NO"; "y"; "null"; "~"; ""; "Null "; "2020-02-29"; "2020-2-29"; "2001-1-1 5:00:00 +5";
                     "<<"; "="; "!"; "a: b"; bs [49; 50; 10]; bs [239; 188; 145]]
  = [TgInt; TgInt; TgInt; TgInt; TgInt; TgInt; TgStr; TgFloat; TgFloat; TgFloat; TgFloat;
     TgBool; TgBool; TgStr; TgNull; TgNull; TgNull; TgStr; TgTimestamp; TgStr; TgTimestamp;
     TgMerge; TgValue; TgYaml; TgStr; TgInt; TgStr].
Proof. vm_compute. reflexivity. Qed.

Definition ex_an : string -> analysis := fun _ => mkAn false false true true true.

(* the str "12" must not be written plain; the int 12 is; both come back with their own tag *)
Example C05_ex_string_that_looks_like_int :
  emit_scalar resolve_plain TgStr ex_an false false (mkSN TgStr "12") = mkPS None false "12" /\
  emit_scalar resolve_plain TgStr ex_an false false (mkSN TgInt "12") = mkPS None true "12" /\
  emit_scalar resolve_plain TgStr ex_an false false (mkSN TgInt "abc") = mkPS (Some TgInt) false "abc" /\
  emit_scalar resolve_plain TgStr ex_an false false (mkSN decimal_tag "1.50") = mkPS (Some decimal_tag) false "1.50" /\
  composed_tag resolve_plain TgStr (mkPS None false "12") = TgStr /\
  composed_tag resolve_plain TgStr (mkPS None true "12") = TgInt.
Proof. vm_compute. repeat split; reflexivity. Qed.

Example C05_ex_int_texts :
  map int_text [0; 7; -7; 2 ^ 64; - 10 ^ 30] =
  ["0"; "7"; "-7"; "18446744073709551616"; "-1000000000000000000000000000000"] /\
  map construct_int ["18446744073709551616"; "-7"; "1_000"; "0x1F"; "1:30"; ""] =
  [Some (2 ^ 64); Some (-7); Some 1000; None; None; None].
Proof. vm_compute. split; reflexivity. Qed.

(* one field of one table referring to two tables (Task.WhoId -> Contact | Lead): both entries are
   restored, in order; the lookup of the CCI mapping is the last one; a continued run that meets
   them again and one new reference appends only the new one *)
Definition ex_poly : globals :=
  mkGlobals [("Task", 2)] [] [] [] [("Task", "Task")] (VDate 738945)
            [mkDep "Task" "Contact" "WhoId"; mkDep "Task" "Lead" "WhoId"; mkDep "Attachment" "Task" "ParentId"]
            (mkTr [("Task", "Task")] [("Task", 2)]) [].

Example C05_ex_polymorphic_lookup :
  match load (save ex_poly) with
  | Ok g' => g_deps g' = g_deps ex_poly /\
             lookup_target (g_deps g') "Task" "WhoId" = Some "Lead" /\
             continue_deps g' [mkDep "Task" "Lead" "WhoId"; mkDep "Note" "Task" "ParentId";
                               mkDep "Task" "Contact" "WhoId"]
             = (g_deps ex_poly ++ [mkDep "Note" "Task" "ParentId"])%list
  | Err _ => False
  end.
Proof. vm_compute. repeat split; reflexivity. Qed.
