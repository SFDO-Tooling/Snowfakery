(* C20 — invalid recipes are rejected with a recipe error, not an internal failure.
   Model: theories/Reject.v (snowfakery/parse_recipe_yaml.py, plugins.py resolve_plugin,
   data_generator.py generate / merge_options, data_generator_runtime.py get_referent_name and the
   version check, the exception wrappers of data_generator_runtime_object_model.py), as repaired by
   the fix: commits of notes/patches/C20_*.diff.
   The statements; the lemmas they follow from are in proofs/RejectP.v.

   The defects found while this check was built (KNOWN_FINDINGS.json, `fixed: property=C20 ...`)
   are repaired; those the model can express have their witnesses in the regression Examples below and in
   corpus/C20/repaired_sites.json. *)
From Coq Require Import ZArith List String.
From SFV Require Import Base Reject.
From SFV.P Require Import RejectP.
Import ListNotations.
Open Scope string_scope.
Open Scope list_scope.

(* Whatever the document, the environment and the fuels: validation (parse_recipe, merge_options, the
   version check, the random_reference scan) never ends with a non-DataGenError exception of Snowfakery's
   own making.  None of the checked operations of the model (dict access on unchecked nodes, attribute
   access on parse_element results, str methods, hashing, the asserts of parse_fields /
   parse_object_template / line_num / check_identifier) can fire.  The only internal exceptions left are
   those the environment hands in: a plugin module that raises while it is imported, PyYAML raising
   something that is neither a YAMLError nor a ValueError while an included file is loaded. *)
Theorem C20_validate_never_crashes :
  forall (E : env) (ffuel mfuel : nat) (doc : yaml) (site : string),
    validate E ffuel mfuel doc = Err (Internal site) -> In site (env_crashes E).
Proof. exact validate_never_crashes. Qed.
Print Assumptions C20_validate_never_crashes.

(* with an environment that does not fail (every plugin module imports, every included file is text PyYAML
   accepts or rejects with YAMLError / ValueError): no internal failure at all *)
Theorem C20_validate_never_crashes_sound_environment :
  forall E ffuel mfuel doc,
    env_crashes E = [] ->
    match validate E ffuel mfuel doc with Err (Internal _) => False | _ => True end.
Proof.
  intros E ff mf doc HE. destruct (validate E ff mf doc) as [|[]] eqn:H; auto.
  pose proof (validate_never_crashes _ _ _ _ _ H) as Hin. rewrite HE in Hin. exact Hin.
Qed.
Print Assumptions C20_validate_never_crashes_sound_environment.

(* text PyYAML cannot load: YAMLError (with or without a position) and ValueError become
   DataGenYamlSyntaxError; only other exception classes are not caught *)
Theorem C20_unloadable_text :
  forall how, match @load_failure unit how with
              | Err (DGE _) => how = LMarked \/ how = LUnmarked \/ how = LValueError
              | Err (Internal s) => how = LExc s
              | _ => False
              end.
Proof. intros [| | |s]; cbn; auto. Qed.
Print Assumptions C20_unloadable_text.

(* "Never hangs".  The walk over the document is structurally recursive; fuel is consumed only by macro
   expansion and file inclusion, and both refuse to re-enter what is already on their stack: with more file
   fuel than the environment has files and more macro fuel than the recipe has macros, validation never runs
   out of fuel. *)
Theorem C20_terminates :
  forall (E : env) (ffuel mfuel : nat) (doc : yaml),
    (S (length (fenv E)) < ffuel)%nat ->
    (forall c, load_file E ffuel [] "" doc ctx0 = Ok c -> (length (c_macros c) < mfuel)%nat) ->
    validate E ffuel mfuel doc <> Err OutOfFuel.
Proof.
  intros * Hff Hmf H.
  refine (validate_safe NoOOF _ _ E _ _ ffuel mfuel doc _ _ H eq_refl); try discriminate.
  right. exact (conj Hff Hmf).
Qed.
Print Assumptions C20_terminates.

(* static faults come before any row *)
Theorem C20_static_before_rows :
  forall E ffuel mfuel doc dyn e,
    validate E ffuel mfuel doc = Err e -> generate E ffuel mfuel doc dyn = (Err e, O).
Proof. intros * H. unfold generate. now rewrite H. Qed.
Print Assumptions C20_static_before_rows.

Theorem C20_rows_only_after_validation :
  forall E ffuel mfuel doc dyn r n,
    generate E ffuel mfuel doc dyn = (r, S n) -> validate E ffuel mfuel doc = Ok tt.
Proof.
  intros *. unfold generate. destruct (validate E ffuel mfuel doc) as [[]|]; [reflexivity|discriminate].
Qed.
Print Assumptions C20_rows_only_after_validation.

(* The wrappers.  Execution enters through a top-level statement: the first step of a path is a `var` or a
   template step (for_each, count, field, friend), or the leaf is reached directly (context creation, row
   set-up, row writing, the for_each check).  Along every such path, any exception (of any class) raised at
   the leaf leaves generate as a DataGenError. *)
Theorem C20_runtime_errors_wrapped :
  forall (path : list step) (l : leaf) (e : exn),
    rooted path l = true -> escape path l e = EDGE.
Proof. exact escape_rooted. Qed.
Print Assumptions C20_runtime_errors_wrapped.

(* the same, position by position: anything inside field rendering, for_each evaluation, count evaluation,
   friend execution, a `var`, or the rendering of a function argument — at any depth below — and every
   leaf that has a handler of its own *)
Theorem C20_runtime_errors_wrapped_everywhere :
  forall (pre post : list step) (l : leaf) (e : exn),
    escape (pre ++ STmplField :: post) l e = EDGE /\
    escape (pre ++ STmplForEach :: post) l e = EDGE /\
    escape (pre ++ STmplCount :: post) l e = EDGE /\
    escape (pre ++ STmplFriend :: post) l e = EDGE /\
    escape (pre ++ SVarExpr :: post) l e = EDGE /\
    escape (pre ++ SCallArg :: post) l e = EDGE /\
    (In l [LWrite; LRowSetup; LEval; LCompile; LFunc; LForEachType; LCtxTmpl; LCtxVar] ->
     escape pre l e = EDGE).
Proof.
  intros. repeat split; [apply escape_below; reflexivity ..|apply wrapped_leaf].
Qed.
Print Assumptions C20_runtime_errors_wrapped_everywhere.

(* no escape route is left: an unwrapped exception would need a path execution cannot take *)
Theorem C20_runtime_escape_routes :
  forall path l e n, escape path l e = EPy n -> rooted path l = false.
Proof.
  intros p l e n H. destruct (rooted p l) eqn:Hr; [|reflexivity].
  rewrite escape_rooted in H by exact Hr. discriminate.
Qed.
Print Assumptions C20_runtime_escape_routes.

(* the one passage that remains open: an exception raised by a plugin module while it is imported passes
   through (not a fault of the recipe's shape; the model takes it from the environment) *)
Example C20_ex_environment_failure_passes_through :
  validate (mkEnv [] [("a.B", PCrash "RuntimeError:plugins.py:resolve_plugin_alternatives")]) 3 3
           (YSeq [YMap [(YStr "plugin", YStr "a.B")]])
  = Err (Internal "RuntimeError:plugins.py:resolve_plugin_alternatives").
Proof. vm_compute. reflexivity. Qed.

Definition E0 := mkEnv [] [].
Definition obj (rest : kvs) := YMap ((YStr "object", YStr "A") :: rest).
Definition field_x (v : yaml) := obj [(YStr "fields", YMap [(YStr "x", v)])].
Definition rr (args : yaml) := field_x (YMap [(YStr "random_reference", args)]).

(* the documents that used to crash (C20-S01 .. S16), now each a DataGenError *)
Definition repaired : list (env * yaml) :=
  [(mkEnv [(("", "a.yml"), FBad LUnmarked)] [], YSeq [YMap [(YStr "include_file", YStr "a.yml")]]);
   (mkEnv [(("", "a.yml"), FBad LValueError)] [], YSeq [YMap [(YStr "include_file", YStr "a.yml")]]);
   (mkEnv [(("", "."), FDir)] [], YSeq [YMap [(YStr "include_file", YStr ".")]]);
   (E0, YSeq [YMap [(YStr "macro", YSeq [YStr "a"])]]);
   (E0, YSeq [YMap [(YStr "plugin", YStr "foo")]]);
   (E0, YSeq [YMap [(YStr "plugin", YStr ".x")]]);
   (mkEnv [] [("os.path", PNotPlugin)], YSeq [YMap [(YStr "plugin", YStr "os.path")]]);
   (E0, YSeq [YMap [(YStr "snowfakery_version", YFloat FlNan)]]);
   (E0, YSeq [obj [(YStr "fields", YMap [(YStr "", YStr "x")])]]);
   (E0, YSeq [obj [(YStr "friends", YSeq [YMap [(YInt 5, YStr "v")]])]]);
   (E0, YSeq [obj [(YStr "for_each", YMap [(YStr "value", YStr "x")])]]);
   (E0, YSeq [YMap [(YStr "option", YSeq [YInt 1]); (YStr "default", YInt 3)]]);
   (E0, YSeq [YMap [(YStr "option", YStr version_option); (YStr "default", YInt 7)]]);
   (E0, YSeq [rr (YMap [(YStr "scope", YStr "y")])]);
   (E0, YSeq [rr (YSeq [])]);
   (E0, YSeq [rr (YSeq [YMap [(YStr "a", YStr "b")]])])].

Example C20_ex_repaired_static_sites :
  forallb (fun w => match validate (fst w) 3 3 (snd w) with Err (DGE _) => true | _ => false end)
          repaired = true.
Proof. vm_compute. reflexivity. Qed.

(* a macro whose friend template includes the macro again: detected like a cycle through `include:` *)
Definition friend_cycle :=
  YSeq [YMap [(YStr "macro", YStr "m");
              (YStr "friends", YSeq [YMap [(YStr "object", YStr "B"); (YStr "include", YStr "m")]])];
        YMap [(YStr "object", YStr "A"); (YStr "include", YStr "m")]].
Example C20_ex_macro_friend_cycle_rejected : validate E0 3 5 friend_cycle = Err (DGE "").
Proof. vm_compute. reflexivity. Qed.
Example C20_ex_macro_include_cycle_rejected :
  validate E0 3 5 (YSeq [YMap [(YStr "macro", YStr "m"); (YStr "include", YStr "m")];
                         YMap [(YStr "object", YStr "A"); (YStr "include", YStr "m")]])
  = Err (DGE "").
Proof. vm_compute. reflexivity. Qed.
(* a file that includes itself, directly or through another file *)
Example C20_ex_include_file_cycle_rejected :
  let d := YSeq [YMap [(YStr "include_file", YStr "a.yml")]] in
  validate (mkEnv [(("", "a.yml"), FDoc "k" d); (("k", "a.yml"), FDoc "k" d)] []) 5 3 d = Err (DGE "") /\
  validate (mkEnv [(("", "a.yml"), FDoc "" d)] []) 5 3 d = Err (DGE "").
Proof. vm_compute. split; reflexivity. Qed.

(* the run-time escapes of C20-R1 .. R5, now wrapped *)
Example C20_ex_repaired_runtime_sites :
  escape [STmplCount] LCountConv (EPy "OverflowError") = EDGE /\      (* count: inf *)
  escape [STmplCount] LCountConv (EPy "ValueError") = EDGE /\         (* count: {fake: Name} *)
  escape [STmplCount] LLookup (EPy "AttributeError") = EDGE /\        (* count: {Plugin.nosuch: 1} *)
  escape [SVarExpr] LPost (EPy "ValueError") = EDGE /\                (* - var: v / value: "." (before the look_for_number repair) *)
  escape [SVarExpr] LLookup (EPy "AttributeError") = EDGE /\          (* - var: v / value: {Plugin.nosuch: 1} *)
  escape [] LCtxTmpl (EPy "AttributeError") = EDGE /\                 (* unknown Faker locale *)
  escape [] LCtxVar (EPy "AttributeError") = EDGE.
Proof. vm_compute. repeat split. Qed.

(* non-vacuity *)
Example C20_ex_valid_recipe :
  validate E0 3 10
    (YSeq [YMap [(YStr "macro", YStr "m"); (YStr "fields", YMap [(YStr "a", YInt 1)])];
           YMap [(YStr "option", YStr "n"); (YStr "default", YInt 2)];
           YMap [(YStr "object", YStr "A"); (YStr "include", YStr "m"); (YStr "count", YStr "${{n}}");
                 (YStr "fields", YMap [(YStr "x", YMap [(YStr "random_reference", YStr "A")])]);
                 (YStr "friends", YSeq [YMap [(YStr "var", YStr "v"); (YStr "value", YInt 1)]])]])
  = Ok tt.
Proof. vm_compute. reflexivity. Qed.

Example C20_ex_rejected :
  map (fun d => validate E0 3 10 d)
      [YNull; YSeq [YInt 5]; YSeq [YMap [(YStr "object", YInt 5)]];
       YSeq [obj [(YStr "fields", YSeq [YStr "a"])]]; YSeq [obj [(YStr "friends", YSeq [YStr "foo"])]];
       YSeq [field_x (YSeq [YInt 1; YInt 2])]; YSeq [obj [(YStr "count", YFloat FlOther)]];
       YSeq [obj [(YStr "for_each", YStr "abc")]]; YSeq [YMap [(YStr "plugin", YInt 5)]];
       YSeq [YMap [(YStr "include_file", YStr "/etc/passwd")]]; YSeq [YMap [(YStr "option", YStr "x")]];
       YSeq [rr (YInt 5)]]
  = repeat (Err (DGE "")) 12.
Proof. vm_compute. reflexivity. Qed.

Example C20_ex_terminates_hypotheses :
  (S (length (fenv E0)) < 3)%nat /\ load_file E0 3 [] "" friend_cycle ctx0 <> Err OutOfFuel.
Proof. split; [vm_compute; auto|vm_compute; discriminate]. Qed.

Example C20_ex_wrapped :
  escape [STmplFriend; STmplField; SNested; STmplCount] LCountConv (EPy "KeyError") = EDGE /\
  escape [SVarExpr; SNested] LWrite (EPy "KeyError") = EDGE /\
  escape [SVarExpr] LFunc (EPy "ZeroDivisionError") = EDGE /\
  rooted [STmplFriend; STmplField; SNested; STmplCount] LCountConv = true.
Proof. vm_compute. repeat split. Qed.

(* The text of the errors.  str.format is a partial function of its template: a lone brace, a field without
   its argument raise.  The code hands user text (table names, nicknames, field / function / variable names,
   definitions, the wrapped exception's own message) to it only as ARGUMENTS of four constant templates; for
   every such text the templates format, and give exactly the expected message. *)
Theorem C20_format_templates_total :
  forall (name msg : string) (c : ascii) (d : string),
    py_format T_func [name] [("e", msg)]
      = Ok ("Cannot evaluate function `" ++ name ++ "`:" ++ nl ++ " " ++ msg)%string /\
    py_format T_field [name] [("e", msg)]
      = Ok ("Problem rendering field " ++ name ++ ":" ++ nl ++ " " ++ msg)%string /\
    py_format T_var [name] [("e", msg)]
      = Ok ("Cannot evaluate variable `" ++ name ++ "`:" ++ nl ++ " " ++ msg)%string /\
    py_format T_parse (chars (String c d)) [("e", msg)] = Ok ("Cannot parse value " ++ String c "")%string.
Proof.
  intros. split; [apply format_T_func|]. split; [apply format_T_field|].
  split; [apply format_T_var | apply format_T_parse].
Qed.
Print Assumptions C20_format_templates_total.

(* every wrapper, given any text and any exception, raises a DataGenError (or passes, as the frame model
   says) - building the message never fails.  (A compile error needs a Jinja delimiter in the definition,
   so the definition is not empty: the one template that is fed `*definition` always has its argument.) *)
Theorem C20_wrappers_build_their_messages :
  forall (f : iframe) (e : exnv),
    iframe_possible f = true ->
    exists e', wrap f e = Ok e' /\ x_cls e' = through (erase f) (x_cls e).
Proof. intros f e Hp. destruct (wrap_step f e Hp) as (e' & Hw & Hc & _). exists e'. now split. Qed.
Print Assumptions C20_wrappers_build_their_messages.

(* the run-time theorem again, now over paths that carry all their text: for every table name, nickname,
   field name, function name, variable name, definition and exception message, any exception raised at any
   leaf of a path execution can take leaves generate as a DataGenError *)
Theorem C20_runtime_errors_wrapped_whatever_the_text :
  forall (path : list istep) (l : ileaf) (e : exnv),
    ileaf_possible l = true ->
    rooted (map erase_step path) (erase_leaf l) = true ->
    x_cls (escape_v path l e) = EDGE.
Proof.
  intros p l e Hl Hr. rewrite (proj1 (escape_v_spec p l e Hl)). now apply escape_rooted.
Qed.
Print Assumptions C20_runtime_errors_wrapped_whatever_the_text.

(* the text-carrying model refines the frame model of the earlier theorems *)
Theorem C20_text_model_refines_frames :
  forall path l e, ileaf_possible l = true ->
    x_cls (escape_v path l e) = escape (map erase_step path) (erase_leaf l) (x_cls e).
Proof. intros. now apply escape_v_spec. Qed.
Print Assumptions C20_text_model_refines_frames.

(* "where the fault is attributable, the file and line": what was not a DataGenError at the leaf knows
   its line when it leaves *)
Theorem C20_runtime_errors_located :
  forall path l e n, ileaf_possible l = true -> x_cls e = EPy n ->
    is_dge (escape_v path l e) = true -> x_line (escape_v path l e) = true.
Proof.
  intros p l e n Hl He. apply (escape_v_spec p l e Hl). unfold located, is_dge. rewrite He. discriminate.
Qed.
Print Assumptions C20_runtime_errors_located.

(* "carrying a message": the message is not empty when the exception brought one, or when a field, a
   function call or a definition is on the way (their wrappers always add their own text) ... *)
Theorem C20_runtime_errors_carry_a_message_partial :
  forall path l e, ileaf_possible l = true ->
    nonempty (x_msg e) = true \/ existsb labels (iframes path l) = true ->
    nonempty (x_msg (escape_v path l e)) = true.
Proof. intros. now apply escape_v_spec. Qed.
Print Assumptions C20_runtime_errors_carry_a_message_partial.

(* ... and that is all: a formula in a `var` (or a count) that raises an exception without text - a bare
   `assert` in a plugin function - is answered with a DataGenError whose message is empty
   (KNOWN_FINDINGS C20-M1; SimpleValue.render: DataGenValueError(str(e))) *)
Example C20_refuted_message_always :
  let r := escape_v [ISVarExpr "v"] ILEval (mkX (EPy "AssertionError") "" false) in
  x_cls r = EDGE /\ x_msg r = "" /\
  rooted (map erase_step [ISVarExpr "v"]) (erase_leaf ILEval) = true.
Proof. vm_compute. repeat split. Qed.

(* the model tells the ways of building a message apart: ObjectTemplate.exception_handling rewritten to
   go through fix_exception with the message as the template fails for a nickname with a brace, the
   exception that then leaves generate is the KeyError / ValueError of str.format *)
Example C20_ex_user_text_as_template_crashes :
  wrap (IFTemplateEH (cannot_generate "Account" "acct{main}")) (mkX (EPy "AttributeError") "x" false)
    = Ok (dge_at "Cannot generate Account (acct{main}) : x") /\
  wrap_unified_template_eh (cannot_generate "Account" "acct{main}") (mkX (EPy "AttributeError") "x" false)
    = Err (Internal "KeyError") /\
  wrap_unified_template_eh (cannot_generate "Set}" "") (mkX (EPy "AttributeError") "x" false)
    = Err (Internal "ValueError") /\
  wrap_unified_template_eh (cannot_generate "Row{}" "") (mkX (EPy "AttributeError") "x" false)
    = Err (Internal "IndexError").
Proof. vm_compute. repeat split. Qed.

Example C20_ex_format :
  py_format "a{}b{e}c{{}}" ["X"] [("e", "E")] = Ok "aXbEc{}" /\
  py_format "{0}{}" ["X"] [] = Err (Internal "ValueError") /\
  py_format "{1}" ["X"] [] = Err (Internal "IndexError") /\
  py_format "{x}" [] [] = Err (Internal "KeyError") /\
  py_format "}" [] [] = Err (Internal "ValueError") /\
  py_format "{x!r}" [] [] = Err Unsupported.
Proof. vm_compute. repeat split. Qed.

Example C20_ex_wrapped_with_text :
  escape_v [ISTmplFriend "P{" "}"; ISTmplCount "T{0}" "n%s" "{x}"] ILLookup (mkX (EPy "AttributeError") "{e}" false)
  = dge_at "Cannot generate T{0} (n%s) : {e}".
Proof. vm_compute. reflexivity. Qed.

(* Documents with anchors.  check_no_recursive_aliases walks the graph PyYAML built.  With its memo it
   expands every container once: the list of finished containers has no repetition, and the function is
   invoked at most once per member slot of the document (plus once for the root) - linear in the size of the
   text, however many ways lead to a shared part. *)
Theorem C20_alias_walk_visits_each_node_once :
  forall (h : heap) (root : nat) (st : astate),
    alias_check h root = Ok st ->
    NoDup (a_fin st) /\ (a_calls st <= 1 + edges h)%nat.
Proof. exact alias_walk_linear. Qed.
Print Assumptions C20_alias_walk_visits_each_node_once.

(* it needs no more stack than the document has containers (never out of fuel) *)
Theorem C20_alias_walk_terminates :
  forall h root, alias_check h root <> Err OutOfFuel.
Proof. intros * H. refine (alias_check_safe NoOOF _ _ h root _ H eq_refl); discriminate. Qed.
Print Assumptions C20_alias_walk_terminates.

(* what it accepts is a finite tree: following the references from the root comes to an end, so the
   tree model of the rest of the parser applies *)
Theorem C20_alias_walk_accepts_only_trees :
  forall h root st, alias_check h root = Ok st -> exists doc, unfold h (S (length h)) root = Ok doc.
Proof. exact alias_walk_accepts_trees. Qed.
Print Assumptions C20_alias_walk_accepts_only_trees.

(* what it rejects does contain itself *)
Theorem C20_alias_walk_rejects_only_cycles :
  forall h root, alias_check h root = Err (DGE "") -> exists x, path h x x.
Proof. intros * H. exact (acheck_dge_cycle h _ [] root _ I _ H eq_refl). Qed.
Print Assumptions C20_alias_walk_rejects_only_cycles.

(* the static theorems, for the document as the loader delivers it *)
Theorem C20_validate_graph_never_crashes :
  forall E ffuel mfuel h root site,
    validate_graph E ffuel mfuel h root = Err (Internal site) -> In site (env_crashes E).
Proof. exact validate_graph_never_crashes. Qed.
Print Assumptions C20_validate_graph_never_crashes.

Theorem C20_validate_graph_terminates :
  forall E ffuel mfuel h root,
    (S (length (fenv E)) < ffuel)%nat ->
    (forall doc c, unfold h (S (length h)) root = Ok doc ->
                   load_file E ffuel [] "" doc ctx0 = Ok c -> (length (c_macros c) < mfuel)%nat) ->
    validate_graph E ffuel mfuel h root <> Err OutOfFuel.
Proof.
  intros * Hff Hmf H.
  refine (validate_graph_safe NoOOF _ _ E _ _ ffuel mfuel h root _ _ H eq_refl); try discriminate.
  right. exact (conj Hff Hmf).
Qed.
Print Assumptions C20_validate_graph_terminates.

(* l0: &l0 []   l1: &l1 [*l0, *l0]   ...   ln: &ln [*l(n-1), *l(n-1)] *)
Definition ladder (n : nat) : heap := HSeq [] :: map (fun i => HSeq [i; i]) (seq 0 n).

(* 40 levels: 81 invocations with the memo; without it (`finished = finished or set()`: an empty memo is
   replaced by a private one, nothing is ever remembered) the count doubles with every level *)
Example C20_ex_alias_ladder :
  (match alias_check (ladder 40) 40 with Ok st => a_calls st | Err _ => O end) = 81%nat /\
  (match acheck_nomemo (ladder 12) 20 [] 12 0 with Ok k => Z.of_nat k | Err _ => 0%Z end) = 8191%Z /\
  (1 + edges (ladder 40) = 81)%nat.
Proof. vm_compute. repeat split. Qed.

Example C20_ex_alias_cycle_rejected :
  alias_check [HSeq [1%nat]; HMap [(YStr "x", 0%nat)]] 0 = Err (DGE "") /\
  validate_graph E0 3 3 [HSeq [1%nat]; HMap [(YStr "object", 2%nat); (YStr "fields", 1%nat)]; HLeaf (YStr "A")] 0
    = Err (DGE "").
Proof. vm_compute. split; reflexivity. Qed.

(* a valid recipe whose option default is a shared structure *)
Example C20_ex_graph_valid :
  validate_graph E0 3 3
    [HSeq [1%nat; 6%nat];
     HMap [(YStr "option", 2%nat); (YStr "default", 5%nat)];
     HLeaf (YStr "o"); HSeq [7%nat]; HSeq [3%nat; 3%nat]; HSeq [4%nat; 4%nat];
     HMap [(YStr "object", 7%nat)]; HLeaf (YStr "A")] 0 = Ok tt.
Proof. vm_compute. reflexivity. Qed.
