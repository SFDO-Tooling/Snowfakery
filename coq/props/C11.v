(* C11 — bounded random functions stay inside their bounds and can reach both ends.
   Model: theories/RandFuncs.v (snowfakery/template_funcs.py random_number, random_choice /
   choice, date_between, datetime_between; CPython randrange / choices and Faker's between
   functions as transcribed there).  The statements; what does not follow in a few steps is proved in
   proofs/RandFuncsP.v.

   The random draw is universally quantified: k ranges over all values _randbelow(n) can
   return, num/den over all rationals in [0,1) random() can return.

   The defects K4 / K10 / K11 / K12 found by the first version of this check were repaired in
   /repo (5f128ae, 9e24eea, d67b12a); the model transcribes the repaired code, the former
   `_partial` statements are now proved at full strength and the former `_refuted` witnesses
   are kept as regression lemmas; so is the witness of K13 (timezone: False rejected after the
   clamp was introduced, repaired by 354b020). *)
From Coq Require Import ZArith List String Ascii.
From SFV Require Import Base RandFuncs.
From SFV.P Require Import RandFuncsP.
Import ListNotations. Open Scope Z_scope.

(* ------------------------------------------------------------------ random_number *)

(* For min <= max, step >= 1: randrange asks for n = (max-min)/step + 1 draws, and every draw k
   gives min + step*k, inside [min,max] and on the lattice. *)
Theorem C11_random_number_lattice :
  forall mn mx step, mn <= mx -> 1 <= step ->
  exists n, randrange_n mn (mx + 1) step = Ok n /\ n = (mx - mn) / step + 1 /\ 1 <= n /\
    forall k, 0 <= k < n ->
      random_number mn mx step (Some k) = Ok (mn + step * k) /\
      mn <= mn + step * k <= mx /\ (mn + step * k - mn) mod step = 0.
Proof.
  intros mn mx step H Hs. exists ((mx - mn) / step + 1). rewrite number_n, (proj2 (Z.ltb_ge mx mn) H) by assumption.
  split; [reflexivity|split; [reflexivity|split; [apply lattice_size_pos; assumption|]]].
  intros k Hk. split; [apply random_number_draw|apply lattice_point]; assumption.
Qed.
Print Assumptions C11_random_number_lattice.

(* Whatever the draw (in range, out of range, absent), an Ok result is on the lattice. *)
Theorem C11_random_number_never_outside :
  forall mn mx step d x, 1 <= step -> random_number mn mx step d = Ok x ->
  mn <= x <= mx /\ (x - mn) mod step = 0 /\ on_lattice mn mx step x = true.
Proof. exact random_number_sound. Qed.
Print Assumptions C11_random_number_never_outside.

(* Every lattice point is produced by some admissible draw ... *)
Theorem C11_random_number_every_point_attainable :
  forall mn mx step v, mn <= mx -> 1 <= step -> mn <= v <= mx -> (v - mn) mod step = 0 ->
  exists k, 0 <= k < (mx - mn) / step + 1 /\ random_number mn mx step (Some k) = Ok v.
Proof. exact random_number_complete. Qed.
Print Assumptions C11_random_number_every_point_attainable.

(* ... in particular both ends of the lattice. *)
Theorem C11_ends_attainable :
  forall mn mx step, mn <= mx -> 1 <= step ->
  (exists k, 0 <= k < (mx - mn) / step + 1 /\ random_number mn mx step (Some k) = Ok mn) /\
  (exists k, 0 <= k < (mx - mn) / step + 1 /\
             random_number mn mx step (Some k) = Ok (mx - (mx - mn) mod step)).
Proof.
  intros mn mx step H Hs. split; eexists; [apply random_number_first|apply random_number_last]; assumption.
Qed.
Print Assumptions C11_ends_attainable.

(* Empty range (max < min) and zero step: an error for every draw. *)
Theorem C11_random_number_empty_range_is_error :
  forall mn mx step d,
    (mx < mn -> 1 <= step -> random_number mn mx step d = Err (Internal "ValueError")) /\
    random_number mn mx 0 d = Err (Internal "ValueError").
Proof. intros mn mx step d. split; [apply random_number_empty|reflexivity]. Qed.
Print Assumptions C11_random_number_empty_range_is_error.

(* The predicate the free-draw correspondence uses is exactly "some draw gives v". *)
Theorem C11_number_possible_exact :
  forall mn mx step v,
    number_possible mn mx step v = true <-> exists k, random_number mn mx step (Some k) = Ok v.
Proof. exact number_possible_iff. Qed.
Print Assumptions C11_number_possible_exact.

(* ------------------------------------------------------------------ random_choice *)

(* CPython's bisect_right, as transcribed, finds the boundary of a monotone predicate within its
   fuel (the fuel S (length cum) given by weighted_choice always suffices). *)
Theorem C11_bisect_correct :
  forall cum xn den (P : Z -> bool) len,
  (forall i, 0 <= i < len -> lt_at cum xn den i = Ok (P i)) ->
  (forall i j, 0 <= i <= j -> j < len -> P i = true -> P j = true) ->
  forall fuel lo hi, 0 <= lo -> lo <= hi -> hi <= len -> hi - lo < Z.of_nat fuel ->
  exists r, bisect_right fuel cum xn den lo hi = Ok r /\ lo <= r <= hi /\
            (forall i, lo <= i < r -> P i = false) /\ (forall i, r <= i < hi -> P i = true).
Proof. exact bisect_spec. Qed.
Print Assumptions C11_bisect_correct.

(* random.choices with weights that are all present, >= 0 and not all 0: for every value of
   random() the call succeeds, returns a listed option, and that option's weight is > 0. *)
Theorem C11_choice_support :
  forall zs opts num den,
  length opts = length zs -> Forall (fun z => 0 <= z) zs -> 0 < zsum zs -> 0 <= num < den ->
  exists i o w, weighted_choice (map Some zs) opts (Some num) den = Ok o /\
                nth_error opts i = Some o /\ nth_error zs i = Some w /\ 0 < w.
Proof. exact weighted_choice_support. Qed.
Print Assumptions C11_choice_support.

(* random_choice in the dict form and the choice-item form (rc_weights / rc_options are the
   vectors handed to random.choices): same statement at the level of the template function. *)
Theorem C11_random_choice_never_zero_weight :
  forall a zs num den,
  match a with RCList _ => False | _ => True end ->
  rc_weights a = map Some zs -> Forall (fun z => 0 <= z) zs -> 0 < zsum zs -> 0 <= num < den ->
  exists i o w, random_choice a (Some num) den = Ok o /\
                nth_error (rc_options a) i = Some o /\ nth_error zs i = Some w /\ 0 < w.
Proof. exact random_choice_support. Qed.
Print Assumptions C11_random_choice_never_zero_weight.

(* All the weight on position i0: that option, for every draw. *)
Theorem C11_single_weight :
  forall a zs num den i0,
  match a with RCList _ => False | _ => True end ->
  rc_weights a = map Some zs -> Forall (fun z => 0 <= z) zs -> 0 < zsum zs -> 0 <= num < den ->
  (forall j w, nth_error zs j = Some w -> 0 < w -> j = i0) ->
  exists o, random_choice a (Some num) den = Ok o /\ nth_error (rc_options a) i0 = Some o.
Proof.
  intros a zs num den i0 Hshape Hws Hpos Htot Hnum Huniq.
  destruct (random_choice_support a zs num den Hshape Hws Hpos Htot Hnum) as (i & o & w & Hr & Ho & Hw & Hw0).
  exists o. rewrite <- (Huniq i w Hw Hw0). split; assumption.
Qed.
Print Assumptions C11_single_weight.

(* dict form spelled out: the returned key is listed with a positive weight *)
Theorem C11_dict_form :
  forall items num den,
  Forall (fun it => 0 <= snd it) items -> 0 < zsum (map snd items) -> 0 <= num < den ->
  exists o w, random_choice (RCDict items) (Some num) den = Ok o /\ In (o, w) items /\ 0 < w.
Proof. exact random_choice_dict. Qed.
Print Assumptions C11_dict_form.

(* choice-item form at full strength: probabilities present, >= 0, not all 0: the pick is a
   listed item whose probability is > 0 -- an item with probability 0 is never picked *)
Theorem C11_choice_items :
  forall items num den,
  Forall (fun it => exists p, fst it = Some p /\ 0 <= p) items ->
  0 < zsum (map (fun it => match fst it with Some p => p | None => 0 end) items) ->
  0 <= num < den ->
  exists o p, random_choice (RCChoices items) (Some num) den = Ok o /\ In (Some p, o) items /\ 0 < p.
Proof. exact random_choice_choices. Qed.
Print Assumptions C11_choice_items.

(* regression for the repaired defect K12 (probability 0 made the call fail) *)
Example C11_choice_items_zero_probability_regression :
  random_choice (RCChoices [(Some 0, 1); (Some 200, 2)]) (Some 0) 1024 = Ok 2 /\
  random_choice (RCChoices [(Some 0, 1); (Some 200, 2)]) (Some 1023) 1024 = Ok 2.
Proof. vm_compute. repeat split. Qed.
Print Assumptions C11_choice_items_zero_probability_regression.

(* plain list: only listed options, each of them reachable; empty list: error *)
Theorem C11_only_listed :
  forall opts, opts <> [] ->
  (forall k, 0 <= k < Z.of_nat (length opts) ->
     exists o, random_choice (RCList opts) (Some k) 0 = Ok o /\
               nth_error opts (Z.to_nat k) = Some o /\ In o opts) /\
  (forall o, In o opts -> exists k, 0 <= k < Z.of_nat (length opts) /\
                                    forall den, random_choice (RCList opts) (Some k) den = Ok o).
Proof. exact random_choice_list. Qed.
Print Assumptions C11_only_listed.

(* a result of a weighted form is always accepted by the predicate used for free draws:
   listed, with a positive weight at that position *)
Theorem C11_choice_possible_sound :
  forall a zs num den o,
  match a with RCList _ => False | _ => True end ->
  rc_weights a = map Some zs -> Forall (fun z => 0 <= z) zs -> 0 < zsum zs -> 0 <= num < den ->
  random_choice a (Some num) den = Ok o -> choice_possible a o = true.
Proof. exact random_choice_possible. Qed.
Print Assumptions C11_choice_possible_sound.

(* ------------------------------------------------------------------ date_between *)

(* Both bounds resolved to day numbers (as written / today / today + relative offset): for every
   draw the result lies between them; reversed bounds give None (the swallowed "empty range"). *)
Theorem C11_date_between_bounds :
  forall c s e ds de num den,
  resolve_date c s = Ok ds -> resolve_date c e = Ok de -> 0 <= num < den ->
  (ds <= de -> exists v, date_between c s e (Some num) den = Ok (Some v) /\ ds <= v <= de) /\
  (de < ds -> forall d, date_between c s e d den = Ok None).
Proof. exact date_between_bounds. Qed.
Print Assumptions C11_date_between_bounds.

(* Independent of how Faker draws: ANY timestamp (microseconds) inside the closed interval it is
   given falls on a day between the bounds. *)
Theorem C11_date_any_draw_between :
  forall ds de ts_us, ds * DAYUS <= ts_us <= de * DAYUS -> ds <= ts_us / DAYUS <= de.
Proof. intros ds de ts_us. apply div_between. reflexivity. Qed.
Print Assumptions C11_date_any_draw_between.

Theorem C11_resolve_date_meaning :
  forall c,
  (forall d, resolve_date c (SDate d) = Ok d) /\
  (forall w o, resolve_date c (SStamp (mkStamp w o)) = Ok (w / DAYUS)) /\
  resolve_date c SToday = Ok (today c) /\ resolve_date c SNow = Ok (today c) /\
  (forall y mo w d h mi s,
      resolve_date c (SRel y mo w d h mi s) = Ok (today c + rel_seconds y mo w d h mi s / DAY)).
Proof. repeat split. Qed.
Print Assumptions C11_resolve_date_meaning.

(* ------------------------------------------------------------------ datetime_between *)

(* normalisation keeps the instant the user wrote, for every specification (offsets included) *)
Theorem C11_instants_preserved :
  forall c sp ps, parse_datetimespec c sp = Ok ps ->
  exists s', datetime_fn c sp = Ok s' /\ instant s' = instant ps /\ off s' = Some 0.
Proof. exact datetime_fn_instant. Qed.
Print Assumptions C11_instants_preserved.

(* THE PROPERTY at full strength: every pair of bounds (absolute with offsets / fractional
   seconds, equal bounds, now / today, relative such as -30d or +1y), every draw, every
   presentation zone tz (None = timezone: False): start <= v <= end as the instants the user
   wrote; reversed bounds are a DataGenError.  The clock is an input: cs is the reading used when
   the start bound is resolved, ce the reading used for the end bound (the code reads the clock
   once per bound); the instants are those of C11_parse_datetimespec_meaning.  In the
   correspondence runs the harness freezes the clock (template_funcs' `datetime.now`) at one
   reading and passes that reading as cs = ce. *)
Theorem C11_datetime_between_bounds :
  forall cs ce s e tz num den ps pe,
  parse_datetimespec cs s = Ok ps -> parse_datetimespec ce e = Ok pe -> 0 <= num < den ->
  (instant pe < instant ps ->
     forall d, exists m, datetime_between cs ce s e tz d den = Err (DGE m)) /\
  (instant ps <= instant pe ->
     exists v o, datetime_between cs ce s e tz (Some num) den = Ok (v, o) /\
                 instant ps <= v <= instant pe /\ (o = tz \/ o = bound_zone tz)).
Proof. exact datetime_between_bounds. Qed.
Print Assumptions C11_datetime_between_bounds.

Theorem C11_parse_datetimespec_meaning :
  forall c,
  (forall w o, exists ps, parse_datetimespec c (SStamp (mkStamp w o)) = Ok ps /\
                          instant ps = instant (mkStamp w o)) /\
  (forall d, exists ps, parse_datetimespec c (SDate d) = Ok ps /\ instant ps = d * DAYUS) /\
  (exists ps, parse_datetimespec c SToday = Ok ps /\ instant ps = today c * DAYUS) /\
  (exists ps, parse_datetimespec c SNow = Ok ps /\ instant ps = now_us c) /\
  (forall y mo w d h mi s, exists ps,
      parse_datetimespec c (SRel y mo w d h mi s) = Ok ps /\
      instant ps = now_us c + rel_seconds y mo w d h mi s * US).
Proof.
  repeat split; [intros w [o|]|intros d| | |intros]; eexists; (split; [reflexivity|]);
    first [reflexivity|apply instant_utc].
Qed.
Print Assumptions C11_parse_datetimespec_meaning.

(* relative bounds spelled out (-30d .. +1y): a = reading + offset, b = later reading + offset *)
Theorem C11_datetime_between_relative_bounds :
  forall cs ce y1 mo1 w1 d1 h1 mi1 s1 y2 mo2 w2 d2 h2 mi2 s2 tz num den,
  0 <= num < den ->
  let a := now_us cs + rel_seconds y1 mo1 w1 d1 h1 mi1 s1 * US in
  let b := now_us ce + rel_seconds y2 mo2 w2 d2 h2 mi2 s2 * US in
  (b < a -> forall d, exists m,
      datetime_between cs ce (SRel y1 mo1 w1 d1 h1 mi1 s1) (SRel y2 mo2 w2 d2 h2 mi2 s2) tz d den
      = Err (DGE m)) /\
  (a <= b -> exists v o,
      datetime_between cs ce (SRel y1 mo1 w1 d1 h1 mi1 s1) (SRel y2 mo2 w2 d2 h2 mi2 s2) tz
                       (Some num) den = Ok (v, o) /\ a <= v <= b).
Proof.
  intros cs ce y1 mo1 w1 d1 h1 mi1 s1 y2 mo2 w2 d2 h2 mi2 s2 tz num den Hnum a b.
  destruct (datetime_between_bounds cs ce (SRel y1 mo1 w1 d1 h1 mi1 s1) (SRel y2 mo2 w2 d2 h2 mi2 s2)
              tz num den _ _ eq_refl eq_refl Hnum) as (Hrev & Hok).
  rewrite !instant_utc in Hrev, Hok. split; [exact Hrev|].
  intros Hle. destruct (Hok Hle) as (v & o & Hr & Hv & _). exists v, o. split; assumption.
Qed.
Print Assumptions C11_datetime_between_relative_bounds.

(* independent of Faker: whatever value rc it returns, min(max(rc, start), end) is inside *)
Theorem C11_clamp_any_draw :
  forall rc lo hi tz, lo <= hi ->
  lo <= fst (clamp rc lo hi tz) <= hi /\
  (snd (clamp rc lo hi tz) = tz \/ snd (clamp rc lo hi tz) = bound_zone tz).
Proof. exact clamp_between. Qed.
Print Assumptions C11_clamp_any_draw.

(* the clamp is not what produces the values: on whole-second starts with the end in a later
   second the result is exactly Faker's draw *)
Theorem C11_datetime_between_unclamped :
  forall cs ce s e tz num den ps pe,
  parse_datetimespec cs s = Ok ps -> parse_datetimespec ce e = Ok pe -> 0 <= num < den ->
  instant ps mod US = 0 -> floor_sec (instant ps) < floor_sec (instant pe) ->
  datetime_between cs ce s e tz (Some num) den =
    Ok (faker_dt_between (floor_sec (instant ps)) (floor_sec (instant pe)) num den, tz).
Proof. exact datetime_between_unclamped. Qed.
Print Assumptions C11_datetime_between_unclamped.

(* regression for K13 (timezone: False raised after the clamp was introduced; 354b020) *)
Example C11_timezone_false_regression :
  let c := mkClock 0 0 in
  let s := mkStamp (w_10h + 900000) None in
  let e := mkStamp (w_10h + 3 * US) None in
  datetime_between c c (SStamp s) (SStamp e) None (Some 0) 1024 = Ok (instant s, None) /\
  datetime_between c c (SStamp s) (SStamp e) None (Some 512) 1024 = Ok (w_10h + 1500000, None).
Proof. vm_compute. repeat split. Qed.
Print Assumptions C11_timezone_false_regression.

(* regressions for the repaired defects: the old witnesses now satisfy the property *)
Example C11_offset_regression :      (* K4: start 10:00-05:00 = 15:00Z, end 18:00Z *)
  (let c := mkClock 0 0 in
   let s := mkStamp w_10h (Some (-18000)) in
   let e := mkStamp (w_10h + 8 * 3600 * US) (Some 0) in
   datetime_between c c (SStamp s) (SStamp e) (Some 0) (Some 0) 1024 = Ok (instant s, Some 0) /\
   datetime_between c c (SStamp s) (SStamp e) (Some 0) (Some 1023) 1024
     = Ok (instant e - 10546875, Some 0)) /\
  (let c := mkClock 0 0 in            (* start 10:00+05:00 = 05:00Z, end 06:00Z: accepted *)
   let s := mkStamp w_10h (Some 18000) in
   let e := mkStamp (w_10h - 4 * 3600 * US) (Some 0) in
   datetime_between c c (SStamp s) (SStamp e) (Some 0) (Some 512) 1024
     = Ok (instant s + 1800 * US, Some 0)).
Proof. vm_compute. repeat split. Qed.
Print Assumptions C11_offset_regression.

Example C11_equal_bounds_regression : (* K10 *)
  let c := mkClock 0 0 in
  let s := mkStamp w_10h None in
  datetime_between c c (SStamp s) (SStamp s) (Some 0) (Some 512) 1024 = Ok (instant s, Some 0).
Proof. vm_compute. repeat split. Qed.
Print Assumptions C11_equal_bounds_regression.

Example C11_subsecond_start_regression : (* K11: start 10:00:00.9 *)
  let c := mkClock 0 0 in
  let s := mkStamp (w_10h + 900000) None in
  let e := mkStamp (w_10h + 5 * US) None in
  datetime_between c c (SStamp s) (SStamp e) (Some 0) (Some 0) 1024 = Ok (instant s, Some 0).
Proof. vm_compute. repeat split. Qed.
Print Assumptions C11_subsecond_start_regression.

(* results of the date functions are accepted by the predicates used for free draws *)
Theorem C11_between_possible_sound :
  (forall c s e num den v,
     0 <= num < den -> run_fn (FDate c s e) (Some num) den = Ok v ->
     possible (FDate c s e) v = true) /\
  (forall cs ce s e tz num den v,
     0 <= num < den -> run_fn (FDateTime cs ce s e tz) (Some num) den = Ok v ->
     possible (FDateTime cs ce s e tz) v = true).
Proof. split; [exact date_between_possible | exact datetime_between_possible]. Qed.
Print Assumptions C11_between_possible_sound.

(* ------------------------------------------------------------------ round 3: blocks rendered row by row *)

(* random.choices only sees the ratios of the weights: a common positive factor changes nothing.
   This is what allows the model to compute with integer numerators. *)
Theorem C11_weighted_choice_scale_invariant :
  forall k ws opts d den, 0 < k ->
  weighted_choice (map (option_map (Z.mul k)) ws) opts d den = weighted_choice ws opts d den.
Proof. exact weighted_choice_scale. Qed.
Print Assumptions C11_weighted_choice_scale_invariant.

(* decimal weights (12.5, 0.25 ...): whichever common denominator 10^Q they are brought to *)
Theorem C11_common_denominator_irrelevant :
  forall ws Q opts d den, (max_places ws <= Q)%nat ->
  weighted_choice (scale_with Q ws) opts d den = weighted_choice (scale_weights ws) opts d den.
Proof.
  intros ws Q opts d den HQ. rewrite (scale_with_more _ Q ws (le_n _) HQ).
  apply weighted_choice_scale, pow10_pos.
Qed.
Print Assumptions C11_common_denominator_irrelevant.

(* A `random_choice` block whose probabilities are literals or formulas of the row and whose picks
   are labels or formulas of the row, rendered for the row with key k: if the probabilities AS
   EVALUATED FOR THIS ROW all parse (parse_weight_str) to numbers >= 0, not all 0, then for every
   draw the result is the pick (as evaluated for this row) of an item at some position i whose
   probability text, as evaluated for this row, parses to a POSITIVE number.  The weights of
   another row (an earlier rendering of the same block) play no role: run_block is a function
   of the block, the row key and the draw. *)
Theorem C11_block_row_never_zero_weight :
  forall (b : block) k ds num den,
  parse_weights (block_toks k b) = Ok (map Some ds) ->
  Forall (fun d => 0 <= dnum d) ds -> Exists (fun d => 0 < dnum d) ds -> 0 <= num < den ->
  exists i it e d o,
    run_block b k (Some num) den = Ok o /\ nth_error b i = Some it /\ o = eval_pexpr k (snd it) /\
    fst it = Some e /\ parse_weight_str (eval_wexpr k e) = Ok d /\ nth_error ds i = Some d /\ 0 < dnum d.
Proof. exact block_row_support. Qed.
Print Assumptions C11_block_row_never_zero_weight.

(* all the weight of the row on item i0 (e.g. 0 / 100 / 0 in this row, 100 / 0 / 0 in the next):
   that item's pick, for every draw *)
Theorem C11_block_row_single_weight :
  forall (b : block) k ds num den i0,
  parse_weights (block_toks k b) = Ok (map Some ds) ->
  Forall (fun d => 0 <= dnum d) ds -> 0 <= num < den ->
  (exists d, nth_error ds i0 = Some d /\ 0 < dnum d) ->
  (forall j d, nth_error ds j = Some d -> 0 < dnum d -> j = i0) ->
  exists it, nth_error b i0 = Some it /\ run_block b k (Some num) den = Ok (eval_pexpr k (snd it)).
Proof.
  intros b k ds num den i0 Hp Hall Hnum (d0 & Hd0 & Hpos0) Huniq.
  assert (Hex : Exists (fun d => 0 < dnum d) ds) by (apply Exists_exists; eauto using nth_error_In).
  destruct (block_row_support b k ds num den Hp Hall Hex Hnum)
    as (i & it & e & d & o & Hr & Hit & -> & _ & _ & Hd & Hpos).
  rewrite (Huniq i d Hd Hpos) in Hit. exists it. split; assumption.
Qed.
Print Assumptions C11_block_row_single_weight.

(* ------------------------------------------------------------------ round 3: the text of a weight *)

(* what parse_weight_str reads from a probability written as a string: blanks, optional sign,
   integer digits, optional point and fraction digits, blanks, any number of trailing '%':
   sign * (the digits read as one number) / 10^(number of fraction digits); same numeral written
   as a YAML / Python float.  In particular the weight is 0 iff all digits are 0. *)
Theorem C11_weight_text_meaning :
  forall a b k sg ip fp, decimal_ok ip fp ->
  parse_weight_str (WStr (string_of_list_ascii
     (repeat " "%char a ++ decimal_text sg ip fp ++ repeat " "%char b ++ repeat "%"%char k)))
  = Ok (mkDec (sign_val sg * dval 0 (ip ++ fraction_digits fp)) (length (fraction_digits fp))) /\
  parse_weight_str (WFlt (string_of_list_ascii (decimal_text sg ip fp)))
  = Ok (mkDec (sign_val sg * dval 0 (ip ++ fraction_digits fp)) (length (fraction_digits fp))).
Proof.
  intros a b k sg ip fp H. split;
    [exact (parse_weight_str_text a b k sg ip fp H)|exact (parse_weight_flt_text sg ip fp H)].
Qed.
Print Assumptions C11_weight_text_meaning.

(* ------------------------------------------------------------------ round 3: the text of the bounds *)

(* relative bounds (Faker's pattern, fullmatch): one optional group per unit in the order
   y M w d h m s, each `sign digits unit`: every written group is read as sign * digits, absent
   groups as 0 *)
Theorem C11_relative_text_meaning :
  forall g0 g1 g2 g3 g4 g5 g6,
  Forall slot_ok [g0; g1; g2; g3; g4; g5; g6] ->
  parse_rel (rel_text rel_units [g0; g1; g2; g3; g4; g5; g6])
  = Some (map slot_val [g0; g1; g2; g3; g4; g5; g6]) /\
  (rel_text rel_units [g0; g1; g2; g3; g4; g5; g6] <> [] ->
   spec_of_text (string_of_list_ascii (rel_text rel_units [g0; g1; g2; g3; g4; g5; g6]))
   = SRel (slot_z g0) (slot_z g1) (slot_z g2) (slot_z g3) (slot_z g4) (slot_z g5) (slot_z g6)).
Proof.
  intros g0 g1 g2 g3 g4 g5 g6 H. pose proof (parse_rel_text _ H eq_refl) as Hp.
  split; [exact Hp|exact (spec_of_text_parse_rel _ _ Hp)].
Qed.
Print Assumptions C11_relative_text_meaning.

(* a larger count of any unit never gives an earlier instant (datetime_between) or day
   (date_between); with C11_parse_datetimespec_meaning / C11_resolve_date_meaning: the bound is
   the clock reading + rel_seconds, resp. today + rel_days *)
Theorem C11_relative_monotone :
  forall y mo w d h mi s y' mo' w' d' h' mi' s',
  y <= y' -> mo <= mo' -> w <= w' -> d <= d' -> h <= h' -> mi <= mi' -> s <= s' ->
  rel_seconds y mo w d h mi s <= rel_seconds y' mo' w' d' h' mi' s' /\
  rel_days y mo w d h mi s <= rel_days y' mo' w' d' h' mi' s'.
Proof. exact rel_seconds_mono. Qed.
Print Assumptions C11_relative_monotone.

(* the day number the model computes for a calendar date: the next day of the calendar (next day
   of the month, first of the next month, 1 January of the next year; leap years per the Gregorian
   rule) is the next number, for every year *)
Theorem C11_calendar_next_day :
  forall y m d, valid_md y m d ->
  (d < days_in_month y m -> days_of_civil y m (d + 1) = days_of_civil y m d + 1) /\
  (d = days_in_month y m -> m < 12 -> days_of_civil y (m + 1) 1 = days_of_civil y m d + 1) /\
  (d = days_in_month y m -> m = 12 -> days_of_civil (y + 1) 1 1 = days_of_civil y m d + 1).
Proof. exact days_of_civil_next. Qed.
Print Assumptions C11_calendar_next_day.

(* ... and it is strictly increasing in the calendar order: bounds are compared as the user wrote them *)
Theorem C11_calendar_monotone :
  forall y m d y' m' d', valid_md y m d -> valid_md y' m' d' -> ymd_lt y m d y' m' d' ->
  days_of_civil y m d < days_of_civil y' m' d'.
Proof. exact days_of_civil_mono. Qed.
Print Assumptions C11_calendar_monotone.

(* a bound written YYYY-MM-DD is that day *)
Theorem C11_iso_date_text_meaning :
  forall y4 m2 d2,
  fields_ok [(y4, 4%nat); (m2, 2%nat); (d2, 2%nat)] ->
  valid_date (dval 0 y4) (dval 0 m2) (dval 0 d2) = true ->
  spec_of_text (string_of_list_ascii (iso_date_text y4 m2 d2 []))
  = SDate (days_of_civil (dval 0 y4) (dval 0 m2) (dval 0 d2)).
Proof.
  intros y4 m2 d2 H Hv. rewrite (spec_of_text_iso _ _ _ _ _ H), parse_iso_date, Hv by assumption.
  reflexivity.
Qed.
Print Assumptions C11_iso_date_text_meaning.

(* a bound written YYYY-MM-DD(T| )HH:MM:SS[.f{1,6}][Z|+HH:MM|-HH:MM] denotes, for datetime_between,
   the instant: that reading of the clock minus the written offset (no offset: UTC) *)
Theorem C11_iso_datetime_text_instant :
  forall c y4 m2 d2 sep h2 mi2 s2 f z,
  fields_ok [(y4, 4%nat); (m2, 2%nat); (d2, 2%nat); (h2, 2%nat); (mi2, 2%nat); (s2, 2%nat)] ->
  is_sep sep = true -> frac_ok f -> zone_ok z ->
  valid_date (dval 0 y4) (dval 0 m2) (dval 0 d2) = true ->
  valid_time (dval 0 h2) (dval 0 mi2) (dval 0 s2) = true ->
  exists ps,
    parse_datetimespec c (spec_of_text (string_of_list_ascii
       (iso_date_text y4 m2 d2 (iso_time_text sep h2 mi2 s2 f z)))) = Ok ps /\
    instant ps = (days_of_civil (dval 0 y4) (dval 0 m2) (dval 0 d2) * DAY
                  + dval 0 h2 * 3600 + dval 0 mi2 * 60 + dval 0 s2) * US + frac_val f
                 - match zone_val z with Some o => o * US | None => 0 end.
Proof.
  intros c y4 m2 d2 sep h2 mi2 s2 f z H Hsep Hf Hz Hv Ht.
  rewrite (spec_of_text_iso _ _ _ _ _ H), parse_iso_datetime, Hv, Ht by assumption.
  destruct (zone_val z); eexists; split; reflexivity.
Qed.
Print Assumptions C11_iso_datetime_text_instant.

(* the property for bounds given as the texts the user wrote *)
Theorem C11_datetime_between_text_bounds :
  forall cs ce ts te tz num den ps pe,
  parse_datetimespec cs (spec_of_text ts) = Ok ps -> parse_datetimespec ce (spec_of_text te) = Ok pe ->
  0 <= num < den -> instant ps <= instant pe ->
  exists v o, datetime_between cs ce (spec_of_text ts) (spec_of_text te) tz (Some num) den = Ok (v, o) /\
              instant ps <= v <= instant pe.
Proof.
  intros cs ce ts te tz num den ps pe Hs He Hnum Hle.
  destruct (datetime_between_bounds cs ce _ _ tz num den ps pe Hs He Hnum) as (_ & H).
  destruct (H Hle) as (v & o & Hr & Hb & _). exists v, o. split; assumption.
Qed.
Print Assumptions C11_datetime_between_text_bounds.

(* ------------------------------------------------------------------ non-vacuity *)

Example C11_ex_number : random_number 1 10 3 (Some 3) = Ok 10 /\ random_number 1 10 3 (Some 0) = Ok 1
                        /\ randrange_n 1 11 3 = Ok 4.
Proof. vm_compute. repeat split. Qed.

Example C11_ex_number_big :
  random_number (- 2 ^ 70) (2 ^ 70) 7 (Some 337311891633546086692) = Ok (2 ^ 70 - 4).
Proof. vm_compute. reflexivity. Qed.

Example C11_ex_choice_dict :   (* weights 50, 0, 12.5 in quarters; random() = 1023/1024 *)
  random_choice (RCDict [(1, 200); (2, 0); (3, 50)]) (Some 1023) 1024 = Ok 3 /\
  random_choice (RCDict [(1, 200); (2, 0); (3, 50)]) (Some 0) 1024 = Ok 1 /\
  random_choice (RCDict [(1, 0); (2, 40); (3, 0)]) (Some 1023) 1024 = Ok 2.
Proof. vm_compute. repeat split. Qed.

Example C11_ex_date :          (* 2024-02-28 .. 2024-03-01 = days 19781 .. 19783 *)
  date_between (mkClock 0 20000) (SDate 19781) (SDate 19783) (Some 1023) 1024 = Ok (Some 19782) /\
  date_between (mkClock 0 20000) (SRel 0 0 0 (-30) 0 0 0) (SRel 1 0 0 0 0 0 0) (Some 0) 1024
    = Ok (Some 19970) /\
  date_between (mkClock 0 20000) (SDate 5) (SDate 3) (Some 0) 1024 = Ok None.
Proof. vm_compute. repeat split. Qed.

Example C11_ex_datetime :
  datetime_between (mkClock 0 0) (mkClock 0 0) (SStamp (mkStamp w_10h None))
                   (SStamp (mkStamp (w_10h + 7200 * US) None)) (Some 18000) (Some 1023) 1024
  = Ok (w_10h + 7192968750, Some 18000).
Proof. vm_compute. reflexivity. Qed.

Example C11_ex_datetime_relative :   (* -30d .. +1y at the reading 2023-01-01T10:00:00.25Z *)
  datetime_between (mkClock (w_10h + 250000) 19358) (mkClock (w_10h + 250000) 19358)
                   (SRel 0 0 0 (-30) 0 0 0) (SRel 1 0 0 0 0 0 0) (Some 0) (Some 0) 1024
  = Ok (w_10h + 250000 - 30 * 86400 * US, Some 0).
Proof. vm_compute. reflexivity. Qed.

(* the block of notes/missed/r3_C11_1: a literal 0 and two formulas alternating between 0 and 100
   with the parity of the row: every row gets the option that carries all the weight in THAT row *)
Example C11_ex_block_mixed :
  let b := [(Some (WLit (WInt 0)), PLab 1);
            (Some (WByKey [(0, WInt 100)] (WStr "0%")), PLab 2);
            (Some (WByKey [(0, WFlt "0.0")] (WStr " +100.0 %")), PKey 1000)] in
  run_block b 0 (Some 0) 1024 = Ok 2 /\ run_block b 0 (Some 1023) 1024 = Ok 2 /\
  run_block b 1 (Some 0) 1024 = Ok 1001 /\ run_block b 1 (Some 1023) 1024 = Ok 1001 /\
  run_block b 2 (Some 512) 1024 = Ok 1002.
Proof. vm_compute. repeat split. Qed.

Example C11_ex_weight_text :
  parse_weight_str (WStr " +012.50 %%") = Ok (mkDec 1250 2) /\
  parse_weight_str (WStr "60%") = Ok (mkDec 60 0) /\ parse_weight_str (WFlt "-0.25") = Ok (mkDec (-25) 2) /\
  parse_weight_str (WStr "5%5") = Err (Internal "ValueError") /\ parse_weight_str (WStr "") = Err (Internal "ValueError") /\
  scale_weights [Some (mkDec 125 1); None; Some (mkDec 25 2); Some (mkDec 3 0)] = [Some 1250; None; Some 25; Some 300].
Proof. vm_compute. repeat split. Qed.

Example C11_ex_text_bounds :
  spec_of_text "-30d" = SRel 0 0 0 (-30) 0 0 0 /\ spec_of_text "+1y" = SRel 1 0 0 0 0 0 0 /\
  spec_of_text "-2w+3h" = SRel 0 0 (-2) 0 3 0 0 /\ spec_of_text "+1d+1y" = SUnsup /\
  spec_of_text "2024-02-29" = SDate 19782 /\ spec_of_text "2023-02-29" = SBad /\
  spec_of_text "2024-02-29T10:00:00-05:00" = SStamp (mkStamp 1709200800000000 (Some (-18000))) /\
  spec_of_text "1970-01-01 00:00:01.5Z" = SStamp (mkStamp 1500000 (Some 0)) /\
  value_of_text "2024-02-29T15:00:00+00:00" = VDT 1709218800000000 (Some 0) /\
  days_of_civil 1970 1 1 = 0 /\ days_of_civil 1 1 1 = -719162.
Proof. vm_compute. repeat split. Qed.

(* ------------------------------------------------------------------ round 5: the source of the draws *)

(* "Attainable" is about what the user's processes can draw.  For a fixed recipe and position of the run
   the draw is a function of the entropy the process started with (RandFuncs.number_at / values_over).
   The check runs the recipe in several fresh processes and looks at each position:
   the values are equal in all processes exactly when the draws are (random_number is injective in the draw) ... *)
Theorem C11_stuck_values_iff_stuck_draws :
  forall mn mx step draw es, mn <= mx -> 1 <= step ->
  (forall e, In e es -> 0 <= draw e < (mx - mn) / step + 1) ->
  (stuck (number_at mn mx step draw) es <-> stuck draw es).
Proof.
  intros mn mx step draw es H Hs Hr. split; intros St e e' He He'; specialize (St e e' He He').
  - apply (random_number_draw_inj mn mx step); auto.
  - unfold number_at. rewrite St. reflexivity.
Qed.
Print Assumptions C11_stuck_values_iff_stuck_draws.

(* ... a position whose draw no longer depends on the process (the generator was re-seeded with a constant
   before it) shows one lattice point only: for every lattice with at least two points and every list of
   processes, the two ends are never both produced ... *)
Theorem C11_reseeded_source_misses_an_end :
  forall mn mx step draw es, mn + step <= mx -> 1 <= step -> stuck draw es ->
  ~ (In (Ok mn) (values_over mn mx step draw es) /\
     In (Ok (mx - (mx - mn) mod step)) (values_over mn mx step draw es)).
Proof. exact reseeded_source_misses_an_end. Qed.
Print Assumptions C11_reseeded_source_misses_an_end.

(* ... whereas a source that can deliver the lowest and the highest draw shows both ends in two processes. *)
Theorem C11_free_source_reaches_both_ends :
  forall mn mx step draw e0 e1, mn <= mx -> 1 <= step -> draw e0 = 0 -> draw e1 = (mx - mn) / step ->
  values_over mn mx step draw [e0; e1] = [Ok mn; Ok (mx - (mx - mn) mod step)].
Proof.
  intros mn mx step draw e0 e1 H Hs D0 D1. unfold values_over, number_at. cbn [map].
  rewrite D0, D1, (proj2 (random_number_first mn mx step H Hs)), (proj2 (random_number_last mn mx step H Hs)).
  reflexivity.
Qed.
Print Assumptions C11_free_source_reaches_both_ends.

(* non-vacuity: the demo of notes/missed/r5_C11_3 (random_number(1, 2) after a unique_id: every process draws 0)
   against a free source *)
Example C11_ex_source :
  values_over 1 2 1 (fun _ => 0) [11; 12; 13] = [Ok 1; Ok 1; Ok 1] /\
  values_over 1 2 1 (fun e => e mod 2) [11; 12; 13] = [Ok 2; Ok 1; Ok 2] /\
  values_over 1 10 3 (fun e => e) [0; 3] = [Ok 1; Ok 10].
Proof. vm_compute. repeat split. Qed.
