(* C14 — composition features are transparent: include_file, macros and options.
   Model: theories/Macros.v (snowfakery/parse_recipe_yaml.py: _dedupe_field_list, include_macro,
   parse_inclusions, parse_object_template, parse_included_files, parse_top_level_elements,
   parse_file, parse_recipe; snowfakery/data_generator.py: merge_options).
   The statements; what does not follow in a few steps is proved in proofs/MacrosP.v.
   P = field definitions, F = friend statements, V = option values: arbitrary types, so every
   theorem holds for every definition / every value (0, false, "" included).              *)
From Coq Require Import List Bool Relations.
From SFV Require Import Base Macros.
From SFV.P Require Import MacrosP.
Import ListNotations. Open Scope string_scope. Open Scope list_scope.

(* _dedupe_field_list: each name once, at the position of its FIRST occurrence, with the
   definition of its LAST occurrence. *)
Theorem C14_dedupe_spec :
  forall (P : Type) (l : list (string * P)),
    NoDup (names (dedupe l)) /\
    names (dedupe l) = first_occurrences (names l) /\
    forall n, lookup n (dedupe l) = last_lookup n l.
Proof.
  intros P l. split; [apply dedupe_NoDup|]. split; [apply dedupe_names|].
  intros n. apply dedupe_lookup.
Qed.
Print Assumptions C14_dedupe_spec.

(* A field list without repeated names is left exactly as written. *)
Theorem C14_dedupe_identity :
  forall (P : Type) (l : list (string * P)), NoDup (names l) -> dedupe l = l.
Proof. exact dedupe_NoDup_id. Qed.
Print Assumptions C14_dedupe_identity.

(* A template that `include`s macros parses to: the raw fields of the (transitively) included
   macros in inclusion order — for each macro its own includes first, then its own fields —
   followed by the template's own fields, de-duplicated once; friends likewise (no de-dup).
   The de-duplication that include_macro performs at every nesting level changes nothing.
   Errors (unknown macro, cycle) are the same on both sides. *)
Theorem C14_macro_inline_eq :
  forall (P F : Type) (env : menv P F) t inc own fro,
    parse_stmt env (SObj t inc own fro) =
    (do '(raw, fr) <- flat_includes env inc; Ok (PObj t (dedupe (raw ++ own)) (fr ++ fro))).
Proof. exact macro_inline_eq. Qed.
Print Assumptions C14_macro_inline_eq.

(* ... i.e. it is the template that has those fields written first and no `include`. *)
Theorem C14_macro_inline_template :
  forall (P F : Type) (env : menv P F) t inc own fro raw fr,
    flat_includes env inc = Ok (raw, fr) ->
    parse_stmt env (SObj t inc own fro) = parse_stmt env (SObj t [] (raw ++ own) (fr ++ fro)).
Proof. intros * H. rewrite !macro_inline_eq, H. reflexivity. Qed.
Print Assumptions C14_macro_inline_template.

(* Each field once; order = first occurrences over (macro fields, then own fields); the
   template's own definition overrides every macro, otherwise the LAST macro definition (in
   inclusion order) wins; friends of the macros come first. *)
Theorem C14_macro_override_order :
  forall (P F : Type) (env : menv P F) t inc own fro raw fr fs frs,
    flat_includes env inc = Ok (raw, fr) ->
    parse_stmt env (SObj t inc own fro) = Ok (PObj t fs frs) ->
    NoDup (names fs) /\
    names fs = first_occurrences (names raw ++ names own) /\
    (forall n, lookup n fs =
               match last_lookup n own with Some v => Some v | None => last_lookup n raw end) /\
    frs = fr ++ fro.
Proof.
  intros * H. rewrite macro_inline_eq, H. intros [= <- <-].
  rewrite <- names_app, <- dedupe_names. repeat split; [apply dedupe_NoDup|].
  intros n. rewrite dedupe_lookup. apply last_lookup_app.
Qed.
Print Assumptions C14_macro_override_order.

(* `include: a, b` = raw fields of a, then raw fields of b (so b overrides a). *)
Theorem C14_macro_include_list :
  forall (P F : Type) (env : menv P F) ns1 ns2,
    flat_includes env (ns1 ++ ns2) =
    (do '(a, b) <- flat_includes env ns1; do '(a', b') <- flat_includes env ns2;
     Ok (a ++ a', b ++ b')).
Proof. intros. apply incl_all_app. Qed.
Print Assumptions C14_macro_include_list.

(* Factoring leading fields with distinct names into macros gives literally the same template. *)
Theorem C14_macro_disjoint_inline :
  forall (P F : Type) (env : menv P F) t inc own fro raw fr,
    flat_includes env inc = Ok (raw, fr) -> NoDup (names (raw ++ own)) ->
    parse_stmt env (SObj t inc own fro) = Ok (PObj t (raw ++ own) (fr ++ fro)).
Proof.
  intros * H Hd. rewrite macro_inline_eq, H. cbn [bind].
  rewrite dedupe_NoDup_id by assumption. reflexivity.
Qed.
Print Assumptions C14_macro_disjoint_inline.

(* The recursion depth used by the model (number of macro definitions + 1) always suffices:
   the fuel never runs out and more fuel gives the same answer. *)
Theorem C14_macro_fuel_sufficient :
  forall (P F : Type) (env : menv P F) fuel name,
    (macro_fuel env <= fuel)%nat ->
    expand fuel env [] name = expand (macro_fuel env) env [] name /\
    expand (macro_fuel env) env [] name <> Err OutOfFuel.
Proof.
  intros * H. assert (expand (macro_fuel env) env [] name <> Err OutOfFuel) as N.
  { intros C. apply expand_fuel_top in C as [k C]. discriminate. }
  split; [apply expand_fuel_mono|]; assumption.
Qed.
Print Assumptions C14_macro_fuel_sufficient.

(* A template that reaches, through its includes, a macro that (transitively) includes itself is
   rejected with a recipe error — never accepted, never an endless expansion. *)
Theorem C14_macro_cycle_rejected :
  forall (P F : Type) (env : menv P F) t inc own fro n0 a,
    In n0 inc -> clos_refl_trans _ (calls env) n0 a -> clos_trans _ (calls env) a a ->
    exists k, parse_stmt env (SObj t inc own fro) = Err (DGE k).
Proof.
  intros * Hn Hr Hc. apply parse_stmt_rejected with n0; [assumption|].
  intros r. apply (expand_cycle_fails Hr Hc).
Qed.
Print Assumptions C14_macro_cycle_rejected.

Theorem C14_macro_unknown_rejected :
  forall (P F : Type) (env : menv P F) t inc own fro n,
    In n inc -> find_macro n env = None ->
    exists k, parse_stmt env (SObj t inc own fro) = Err (DGE k).
Proof.
  intros * Hn Hf. apply parse_stmt_rejected with n; [assumption|].
  intros r. unfold macro_fuel. cbn [expand]. rewrite Hf. discriminate.
Qed.
Print Assumptions C14_macro_unknown_rejected.

(* Template parsing fails only with a recipe error (the model's fuel is never the reason). *)
Theorem C14_parse_stmt_errors :
  forall (P F : Type) (env : menv P F) s e, parse_stmt env s = Err e -> exists k, e = DGE k.
Proof. exact parse_stmt_err. Qed.
Print Assumptions C14_parse_stmt_errors.

(* include_file: the statements, option declarations and macros of an included file come before
   everything else the including file contributes. *)
Theorem C14_include_prepend :
  forall (P F V : Type) (g : file P F V) incs opts macs stmts,
    flatten (File (Some g :: incs) opts macs stmts) =
    (do '(s1, o1, m1) <- flatten g;
     do '(s2, o2, m2) <- flatten (File incs opts macs stmts);
     Ok (s1 ++ s2, o1 ++ o2, m1 ++ m2)).
Proof.
  intros. rewrite bind_app3, !flatten_File, flatten_incs_cons.
  destruct (flatten g); [|reflexivity]. destruct (flatten_incs incs); [|reflexivity].
  cbn [bind]. rewrite app3_assoc. reflexivity.
Qed.
Print Assumptions C14_include_prepend.

(* Moving the leading statements / options / macros of a file into a file pulled in with
   include_file (the last — or only — include_file of that file) does not change the parse
   result, whatever macros either file defines or uses. *)
Theorem C14_include_inline_eq :
  forall (P F V : Type) incs (g : file P F V) opts macs stmts s1 o1 m1,
    flatten g = Ok (s1, o1, m1) ->
    parse_recipe (File (incs ++ [Some g]) opts macs stmts) =
    parse_recipe (File incs (o1 ++ opts) (m1 ++ macs) (s1 ++ stmts)).
Proof.
  intros. apply parse_recipe_flatten. apply include_last_inline. assumption.
Qed.
Print Assumptions C14_include_inline_eq.

(* Any tree of files is equivalent to the single file holding its flattened content. *)
Theorem C14_include_single_file :
  forall (P F V : Type) (f : file P F V) s o m,
    flatten f = Ok (s, o, m) -> parse_recipe f = parse_recipe (File [] o m s).
Proof. intros * H. apply parse_recipe_flatten. rewrite H. reflexivity. Qed.
Print Assumptions C14_include_single_file.

(* merge_options, for every value type V and every value (0, False, "" and None included):
   (1) a declared option the user supplied has exactly the supplied value;
   (2) otherwise it has the default of its (last) declaration;
   (3) the merge fails — with a recipe error — iff some declaration has neither. *)
Theorem C14_option_rule :
  forall (V : Type) (decls : list (optdecl V)) (user plugin : dict V),
    (forall o extra n v,
        merge_options decls user plugin = Ok (o, extra) ->
        In n (map (@o_name V) decls) -> lookup n user = Some v -> lookup n o = Some v) /\
    (forall o extra n d,
        merge_options decls user plugin = Ok (o, extra) ->
        last_decl n decls = Some d -> lookup n user = None -> lookup n o = o_default d) /\
    ((exists e, merge_options decls user plugin = Err e) <->
     (exists d, In d decls /\ lookup (o_name d) user = None /\ o_default d = None)) /\
    (forall e, merge_options decls user plugin = Err e -> exists k, e = DGE k).
Proof.
  intros V decls user plugin. repeat match goal with |- _ /\ _ => split end.
  - intros o extra n v H Hn Hu. destruct (last_decl_declared _ _ Hn) as [d Hd].
    rewrite (option_value _ _ _ _ H Hd), Hu. reflexivity.
  - intros o extra n d H Hd Hu.
    rewrite (@option_value V decls user plugin o extra n d H Hd), Hu. reflexivity.
  - exact (option_error_iff decls user plugin).
  - intros e. exact (@option_error_kind V decls user plugin e).
Qed.
Print Assumptions C14_option_rule.

(* an option declared once: its declaration is the one that counts *)
Theorem C14_option_declared_once :
  forall (V : Type) (decls : list (optdecl V)) d,
    NoDup (map (@o_name V) decls) -> In d decls -> last_decl (o_name d) decls = Some d.
Proof. exact last_decl_unique. Qed.
Print Assumptions C14_option_declared_once.

(* options the user passed that no declaration (and no plugin option) mentions are reported as
   extra (a warning in generate()), nothing else *)
Theorem C14_option_extras :
  forall (V : Type) (decls : list (optdecl V)) user plugin o extra k,
    merge_options decls user plugin = Ok (o, extra) ->
    (In k extra <-> In k (names user) /\ ~ In k (names o)).
Proof.
  intros * H. apply merge_options_ok in H as [_ ->].
  rewrite filter_In, negb_true_iff, mem_false. reflexivity.
Qed.
Print Assumptions C14_option_extras.

(* ---- the `include:` string (parse_inclusions) ---- *)
(* Writing macro names separated by commas, with any white space around the names and any number of
   empty items (", ,", trailing comma), includes exactly those names, in the order written. *)
Theorem C14_include_string_split :
  forall items : list (string * string * string),
    Forall (fun it => let '(l, n, r) := it in
                      all_ws l = true /\ all_ws r = true /\ (n = "" \/ clean_name n)) items ->
    split_includes (join_includes items) = filter nonempty (map (fun it => snd (fst it)) items).
Proof. exact split_includes_join. Qed.
Print Assumptions C14_include_string_split.

(* ---- names seen by formulas (EvaluationNamespace.field_vars) ---- *)
(* ${{n}} evaluates to the entry of the closest scope that defines n: standard functions, then
   variables, plugins, the fields of the current row, object names (tables, nicknames, forward
   references), the options, and last the built-in names id / count / child_index / this /
   today / now / fake / template. *)
Theorem C14_name_resolution_order :
  forall (V : Type) n (s : scopes V),
    resolve n s =
    pick (last_lookup n (sc_funcs s)) (pick (last_lookup n (sc_vars s))
    (pick (last_lookup n (sc_plugins s)) (pick (last_lookup n (sc_fields s))
    (pick (last_lookup n (sc_objects s)) (pick (last_lookup n (sc_options s))
    (last_lookup n (sc_builtins s))))))).
Proof. exact resolve_spec. Qed.
Print Assumptions C14_name_resolution_order.

(* The option rule as formulas see it: in a run whose options are merge_options' result, a
   declared option n evaluates through ${{n}} to the value the user supplied (whatever it is), else
   to its declared default - also when n is spelled like a built-in name (count, today, now, this,
   fake, template, id, child_index) - unless a closer scope (object name, field of the current row,
   plugin, variable, standard function) defines n; and it is never undefined. *)
Theorem C14_option_seen_by_formula :
  forall (V : Type) (decls : list (optdecl V)) (user plugin o : dict V) extra n d (s : scopes V),
    merge_options decls user plugin = Ok (o, extra) -> NoDup (names plugin) ->
    last_decl n decls = Some d -> ~ closer_defines n s ->
    resolve n (with_options s o) =
    match lookup n user with Some v => Some v | None => o_default d end /\
    resolve n (with_options s o) <> None.
Proof. exact option_seen. Qed.
Print Assumptions C14_option_seen_by_formula.

Theorem C14_option_hides_builtin :
  forall (V : Type) n (s : scopes V) v,
    ~ closer_defines n s -> last_lookup n (sc_options s) = Some v -> resolve n s = Some v.
Proof. intros * H E. rewrite (resolve_not_closer H), E. reflexivity. Qed.
Print Assumptions C14_option_hides_builtin.

(* ---- include files on disk (parse_included_file: paths, nesting, cycles) ---- *)
(* Following include_file lines on the file system always ends: a nesting depth of (number of
   files + 1) is never exceeded, and more fuel gives the same answer. *)
Theorem C14_fs_fuel_sufficient :
  forall (P F V : Type) (fs : fsys P F V) fuel p,
    (fs_fuel fs <= fuel)%nat ->
    fs_flatten fuel fs [] p = fs_flatten (fs_fuel fs) fs [] p /\
    fs_flatten (fs_fuel fs) fs [] p <> Err OutOfFuel.
Proof.
  intros * H. assert (fs_flatten (fs_fuel fs) fs [] p <> Err OutOfFuel) as N.
  { intros C. apply fs_fuel_top in C as [C|[k C]]; discriminate. }
  split; [apply fs_fuel_mono|]; assumption.
Qed.
Print Assumptions C14_fs_fuel_sufficient.

(* ... and it fails only with a recipe error (Unsupported: an include_file path climbs above the
   main recipe's directory, which the model does not describe). *)
Theorem C14_fs_errors :
  forall (P F V : Type) (fs : fsys P F V) main e,
    fs_parse_recipe fs main = Err e -> e = Unsupported \/ exists k, e = DGE k.
Proof. exact fs_parse_recipe_err. Qed.
Print Assumptions C14_fs_errors.

(* Refinement: what the files on disk contribute is what the tree of files they unfold to
   (each include_file path resolved against the directory of the file that contains the line)
   contributes; hence every theorem about `flatten` / `parse_recipe` on trees above
   (C14_include_prepend, C14_include_inline_eq, C14_include_single_file) holds for recipes on disk. *)
Theorem C14_fs_refines_tree :
  forall (P F V : Type) (fs : fsys P F V) fuel stack p,
    fs_flatten fuel fs stack p = (do g <- fs_tree fuel fs stack p; flatten g).
Proof. exact fs_flatten_tree. Qed.
Print Assumptions C14_fs_refines_tree.

Theorem C14_fs_parse_recipe_tree :
  forall (P F V : Type) (fs : fsys P F V) main g,
    fs_tree (fs_fuel fs) fs [] main = Ok g -> fs_parse_recipe fs main = parse_recipe g.
Proof.
  intros * H. unfold fs_parse_recipe, parse_recipe. rewrite fs_flatten_tree, H. reflexivity.
Qed.
Print Assumptions C14_fs_parse_recipe_tree.

(* A recipe from which a file can be reached that includes itself, directly or through other
   files, is rejected with an error - never accepted, never followed without end. *)
Theorem C14_fs_cycle_rejected :
  forall (P F V : Type) (fs : fsys P F V) main a,
    clos_refl_trans _ (fs_includes fs) main a -> clos_trans _ (fs_includes fs) a a ->
    exists e, fs_parse_recipe fs main = Err e /\ (e = Unsupported \/ exists k, e = DGE k).
Proof.
  intros * Hr Hc.
  destruct (fs_parse_recipe fs main) as [r|e] eqn:E; [|eauto using fs_parse_recipe_err].
  apply BaseP.bind_Ok in E as (x & E & _). destruct (fs_cycle_fails Hr Hc _ _ E).
Qed.
Print Assumptions C14_fs_cycle_rejected.

(* Only the relative layout counts: the whole tree of files moved into another directory parses
   to the same result (an include_file path names a file relative to its includer, not relative
   to the main recipe, the working directory or anything remembered from another run). *)
Theorem C14_fs_relocate :
  forall (P F V : Type) pre (fs : fsys P F V) main,
    (forall q, In q (fs_paths fs) -> q <> []) ->
    fs_parse_recipe fs main <> Err Unsupported ->
    fs_parse_recipe (relocate pre fs) (pre ++ main) = fs_parse_recipe fs main.
Proof.
  intros * Hne H. unfold fs_parse_recipe, fs_fuel in *. rewrite relocate_length. f_equal.
  apply (fs_flatten_relocate pre fs _ [] main Hne). eapply bind_not_err, H.
Qed.
Print Assumptions C14_fs_relocate.

(* ---- histories: chains of runs, each continuing the one before it or starting afresh ---- *)
(* The options of every run of every chain are merge_options of THAT run's declarations and THAT
   run's user_options: nothing an earlier link declared or was given reaches a later link, whether
   the link continues the earlier run (continuation file) or not. *)
Theorem C14_chain_options_own :
  forall (V : Type) (ls : list (link V)) prev,
    chain_options prev ls = map (@own_options V) ls.
Proof. exact chain_options_own. Qed.
Print Assumptions C14_chain_options_own.

(* the same links behind two different histories have the same options *)
Theorem C14_chain_history_free :
  forall (V : Type) (before before' ls : list (link V)) prev prev',
    skipn (List.length before) (chain_options prev (before ++ ls)) =
    skipn (List.length before') (chain_options prev' (before' ++ ls)).
Proof.
  intros. rewrite !chain_options_own, !map_app.
  rewrite <- (map_length (@own_options V) before), <- (map_length (@own_options V) before').
  rewrite !skipn_app, !skipn_all, !Nat.sub_diag. reflexivity.
Qed.
Print Assumptions C14_chain_history_free.

(* the property's rule at link k of any chain: the supplied value if this link supplies one, else
   the default this link's recipe declares; the run fails (recipe error) iff this link has neither *)
Theorem C14_chain_option_rule :
  forall (V : Type) (ls : list (link V)) prev k (l : link V),
    nth_error ls k = Some l ->
    (forall o n d, nth_error (chain_options prev ls) k = Some (Ok o) ->
                   last_decl n (l_decls l) = Some d ->
                   lookup n o = match lookup n (l_user l) with Some v => Some v | None => o_default d end) /\
    ((exists e, nth_error (chain_options prev ls) k = Some (Err e)) <->
     (exists d, In d (l_decls l) /\ lookup (o_name d) (l_user l) = None /\ o_default d = None)) /\
    (forall e, nth_error (chain_options prev ls) k = Some (Err e) -> exists m, e = DGE m).
Proof. exact chain_option_rule. Qed.
Print Assumptions C14_chain_option_rule.

(* ---- non-vacuity: concrete instances, closed by computation ---- *)
Definition ex_env : menv string string :=
  [("m0", mkMacro [] [("a", "1"); ("b", "junk")] []);
   ("m1", mkMacro ["m0"] [("b", "B"); ("c", "C")] ["F"])].

Example C14_ex_macro :
  parse_stmt ex_env (SObj "A" ["m1"] [("d", "D"); ("a", "5")] ["G"])
  = Ok (PObj "A" [("a", "5"); ("b", "B"); ("c", "C"); ("d", "D")] ["F"; "G"])
  /\ flat_includes ex_env ["m1"] = Ok ([("a", "1"); ("b", "junk"); ("b", "B"); ("c", "C")], ["F"]).
Proof. vm_compute. split; reflexivity. Qed.

Example C14_ex_cycle :
  parse_stmt (ex_env ++ [("m0", mkMacro ["m1"] [] [])]) (SObj "A" ["m1"] [] ([] : list string))
  = Err (DGE "Macro calls itself")
  /\ calls (ex_env ++ [("m0", mkMacro ["m1"] [] [])]) "m1" "m0"
  /\ calls (ex_env ++ [("m0", mkMacro ["m1"] [] [])]) "m0" "m1".
Proof.
  split; [vm_compute; reflexivity|]. split; eexists; (split; [vm_compute; reflexivity|cbn; auto]).
Qed.

Example C14_ex_include :
  parse_recipe (File [Some (File [] [mkOpt "n" (Some (VInt 0))] [("m", mkMacro [] [("x", "1")] [])]
                                 [SVar "v" "7"])]
                     [mkOpt "k" None] [("m", mkMacro [] [("x", "2")] [])]
                     [SObj "A" ["m"] [("y", "3")] ([] : list string)])
  = Ok ([PVar "v" "7"; PObj "A" [("x", "2"); ("y", "3")] []],
        [mkOpt "n" (Some (VInt 0)); mkOpt "k" None]).
Proof. vm_compute. reflexivity. Qed.

Example C14_ex_options_falsy :
  merge_options [mkOpt "a" (Some (VInt 5)); mkOpt "b" (Some (VInt 5)); mkOpt "c" (Some (VInt 5));
                 mkOpt "d" (Some (VInt 0)); mkOpt "e" (Some (VStr ""))]
                [("a", VInt 0); ("b", VBool false); ("c", VStr ""); ("z", VInt 1)] []
  = Ok ([("a", VInt 0); ("b", VBool false); ("c", VStr ""); ("d", VInt 0); ("e", VStr "")], ["z"])
  /\ merge_options [mkOpt "a" (None : option oval)] [("z", VInt 1)] []
     = Err (DGE "No definition supplied for option").
Proof. vm_compute. split; reflexivity. Qed.

(* an option called `count`, a variable and a function: closest scope wins, option hides built-in *)
Example C14_ex_names :
  let s := mkScopes [("id", VInt 7); ("count", VInt 7); ("today", VStr "?builtin")]
                    [("count", VInt 0); ("today", VStr "2001-02-03"); ("v", VStr "opt"); ("date", VInt 1)]
                    [("A", VStr "?object")] [("id", VInt 7)] [] [("v", VStr "var")]
                    [("date", VStr "?func")] in
  resolve "count" s = Some (VInt 0) /\ resolve "today" s = Some (VStr "2001-02-03") /\
  resolve "v" s = Some (VStr "var") /\ resolve "date" s = Some (VStr "?func") /\
  resolve "id" s = Some (VInt 7) /\ resolve "zz" s = None.
Proof. vm_compute. repeat split; reflexivity. Qed.

(* main.yml includes sub/a.yml and lib.yml; sub/a.yml includes lib.yml (= sub/lib.yml, another
   file) and ../lib.yml (= lib.yml); a file that includes its includer is rejected *)
Definition ex_fs : fsys string string oval :=
  [(["main.yml"], FsFile [["sub"; "a.yml"]; ["."; "lib.yml"]] [] [] [SVar "m" "0"]);
   (["lib.yml"], FsFile [] [] [] [SVar "top" "1"]);
   (["sub"; "lib.yml"], FsFile [] [] [] [SVar "sub" "2"]);
   (["sub"; "a.yml"], FsFile [["lib.yml"]; [".."; "lib.yml"]] [] [] [SVar "a" "3"]);
   (["loop.yml"], FsFile [["sub"; "back.yml"]] [] [] []);
   (["sub"; "back.yml"], FsFile [[".."; "loop.yml"]] [] [] [])].

Example C14_ex_fs :
  fs_parse_recipe ex_fs ["main.yml"]
  = Ok ([PVar "sub" "2"; PVar "top" "1"; PVar "a" "3"; PVar "top" "1"; PVar "m" "0"], [])
  /\ fs_parse_recipe ex_fs ["loop.yml"] = Err (DGE "Include file includes itself")
  /\ fs_parse_recipe (relocate ["x"; "y"] ex_fs) ["x"; "y"; "main.yml"] = fs_parse_recipe ex_fs ["main.yml"]
  /\ fs_includes ex_fs ["loop.yml"] ["sub"; "back.yml"] /\ fs_includes ex_fs ["sub"; "back.yml"] ["loop.yml"].
Proof.
  split; [vm_compute; reflexivity|]. split; [vm_compute; reflexivity|]. split; [vm_compute; reflexivity|].
  split; do 5 eexists; (split; [vm_compute; reflexivity|split; [cbn; auto|vm_compute; reflexivity]]).
Qed.

Example C14_ex_include_string :
  split_includes " m1 ,m2,  , big macro ," = ["m1"; "m2"; "big macro"] /\ split_includes "" = [] /\
  join_includes [(" ", "m1", " "); ("", "m2", ""); ("  ", "", " "); (" ", "big macro", " "); ("", "", "")]
  = " m1 ,m2,   , big macro ,".
Proof. vm_compute. repeat split; reflexivity. Qed.


(* four chained runs, option batch (default 1) supplied as 7 / not at all / 3 / not at all, and a
   required option supplied only by the first run: the model (the code) against the reading in which
   a continued run inherits the options of the run it continues *)
Example C14_ex_chain :
  let d := [mkOpt "batch" (Some (VInt 1))] in
  let ls := [mkLink d [("batch", VInt 7)] false; mkLink d [] true;
             mkLink d [("batch", VInt 3)] true; mkLink d [] true] in
  let rq := [mkLink [mkOpt "region" None] [("region", VStr "EU")] false;
             mkLink [mkOpt "region" None] [] true] in
  chain_options None ls = [Ok [("batch", VInt 7)]; Ok [("batch", VInt 1)];
                           Ok [("batch", VInt 3)]; Ok [("batch", VInt 1)]]
  /\ inheriting_options [] ls = [Ok [("batch", VInt 7)]; Ok [("batch", VInt 7)];
                                 Ok [("batch", VInt 3)]; Ok [("batch", VInt 3)]]
  /\ chain_options None rq = [Ok [("region", VStr "EU")]; Err (DGE "No definition supplied for option")]
  /\ inheriting_options [] rq = [Ok [("region", VStr "EU")]; Ok [("region", VStr "EU")]]
  /\ map (fun r => match r with Ok (_, c) => Some c | Err _ => None end)
         (run_chain None (ls ++ rq)) = [Some 1; Some 2; Some 3; Some 4; Some 1; None]%nat.
Proof. vm_compute. repeat split; reflexivity. Qed.
